(* Lemmas about Model/Adaptor.v (property C14).  None of them needs a premise about the curve: they are
   statements about which inputs the model accepts and what it outputs on failure. *)
From Coq Require Import ZArith List Bool Lia.
Require Import Spec.Params Spec.Field Spec.Curve Spec.Bytes Spec.Sha256.
Require Import Model.Base Model.Der Model.Adaptor.
Require Import Proofs.BytesLemmas Proofs.BaseLemmas.
Import ListNotations.
Local Open Scope Z_scope.

Definition ret_of (l : list arg) : Z := get_int (nth_arg 0 l).

Lemma midstates_correct :
  tagged_midstate tag_adaptor_non = midstate_adaptor_non /\
  tagged_midstate tag_adaptor_aux = midstate_adaptor_aux /\
  tagged_midstate tag_dleq = midstate_dleq.
Proof. split; [|split]; vm_compute; reflexivity. Qed.

(* so the state chosen by the nonce function is always the BIP-340 tagged-hash state of its algo argument *)
Lemma adaptor_tag_state_is_tagged : forall algo, adaptor_tag_state algo = tagged_midstate algo.
Proof.
  intro algo. unfold adaptor_tag_state.
  destruct (bytes_eqb algo tag_adaptor_non) eqn:Ea.
  - apply bytes_eqb_eq in Ea. subst algo. symmetry. exact (proj1 midstates_correct).
  - destruct (bytes_eqb algo tag_dleq) eqn:Ed; [|reflexivity].
    apply bytes_eqb_eq in Ed. subst algo. symmetry. exact (proj2 (proj2 midstates_correct)).
Qed.

Section AdaptorProofs.
Variable P : Params.
Let n := cn P.
Notation G := (Curve.G P).
Notation pmul := (Curve.pmul P).
Notation padd := (Curve.padd P).

(* which of the five fields are range-checked, and how:
   R, R'  : valid 33-byte compressed points (eckey_pubkey_parse);
   sigr   : x bytes of R reduced mod n silently, must be non-zero;
   s'     : 0 < value < n, no reduction;
   e      : reduced mod n silently, no check;
   s      : value < n (overflow rejected).
   As decrypt and recover call the function (only sigr and s' requested), R, R', e, s are not looked at. *)
Lemma codec_part_exact : forall b sigr sp,
  adaptor_sig_deserialize_part P b = Some (sigr, sp) <->
  ( sigr = be_val (slice 1 32 b) mod n /\ sigr <> 0 /\ sp = be_val (slice 66 32 b) /\ 0 < sp < n ).
Proof.
  intros. unfold adaptor_sig_deserialize_part, sc_of_b32. fold n. cbn [fst].
  destruct (be_val (slice 1 32 b) mod n =? 0) eqn:Ez.
  - split; [discriminate|intros (-> & H & _)]. lia.
  - destruct (seckey_of_b32 P (slice 66 32 b)) as [k|] eqn:Ek.
    + apply seckey_of_b32_Some_iff in Ek. split; [intros [= <- <-]|intros (-> & _ & -> & _); f_equal; f_equal]; lia.
    + split; [discriminate|intros (_ & _ & -> & H)]. apply (conj eq_refl), seckey_of_b32_Some_iff in H. congruence.
Qed.

(* the full deserialization is the partial one, the two point fields and the overflow check of s *)
Lemma deser_full_eq : forall b,
  adaptor_sig_deserialize_full P b =
  match eckey_pubkey_parse P (slice 0 33 b), adaptor_sig_deserialize_part P b, eckey_pubkey_parse P (slice 33 33 b) with
  | Some R, Some (sigr, sp), Some Rp =>
    if n <=? be_val (slice 130 32 b) then None
    else Some (R, sigr, Rp, sp, be_val (slice 98 32 b) mod n, be_val (slice 130 32 b) mod n)
  | _, _, _ => None
  end.
Proof.
  intros. unfold adaptor_sig_deserialize_full, adaptor_sig_deserialize_part, sc_of_b32. fold n. cbn [fst].
  destruct (eckey_pubkey_parse P (slice 0 33 b)); [|reflexivity].
  destruct (_ =? 0); [reflexivity|].
  destruct (eckey_pubkey_parse P (slice 33 33 b)), (seckey_of_b32 P (slice 66 32 b)); reflexivity.
Qed.

Lemma codec_exact : forall b R sigr Rp sp e s,
  adaptor_sig_deserialize_full P b = Some (R, sigr, Rp, sp, e, s) <->
  ( eckey_pubkey_parse P (slice 0 33 b) = Some R /\
    sigr = be_val (slice 1 32 b) mod n /\ sigr <> 0 /\
    eckey_pubkey_parse P (slice 33 33 b) = Some Rp /\
    sp = be_val (slice 66 32 b) /\ 0 < sp < n /\
    e = be_val (slice 98 32 b) mod n /\
    s = be_val (slice 130 32 b) mod n /\ be_val (slice 130 32 b) < n ).
Proof.
  intros. rewrite deser_full_eq. split.
  - destruct (eckey_pubkey_parse P (slice 0 33 b)); [|discriminate].
    destruct (adaptor_sig_deserialize_part P b) as [[r0 s0]|] eqn:Ep; [|discriminate].
    destruct (eckey_pubkey_parse P (slice 33 33 b)); [|discriminate].
    destruct (n <=? _) eqn:Eo; [discriminate|]. intros [= <- <- <- <- <- <-].
    apply codec_part_exact in Ep. apply Z.leb_gt in Eo. tauto.
  - intros (-> & H2 & H3 & -> & H5 & H6 & -> & -> & H9).
    rewrite (proj2 (codec_part_exact b sigr sp)) by tauto. apply Z.leb_gt in H9. rewrite H9. reflexivity.
Qed.

Lemma codec_full_implies_part : forall b R sigr Rp sp e s,
  adaptor_sig_deserialize_full P b = Some (R, sigr, Rp, sp, e, s) ->
  adaptor_sig_deserialize_part P b = Some (sigr, sp).
Proof.
  intros. apply codec_exact in H. apply codec_part_exact. tauto.
Qed.

Lemma codec_rejects : forall b,
  eckey_pubkey_parse P (slice 0 33 b) = None \/ be_val (slice 1 32 b) mod n = 0 \/
  eckey_pubkey_parse P (slice 33 33 b) = None \/ be_val (slice 66 32 b) = 0 \/ n <= be_val (slice 66 32 b) \/
  n <= be_val (slice 130 32 b) ->
  adaptor_sig_deserialize_full P b = None.
Proof.
  intros b H. destruct (adaptor_sig_deserialize_full P b) as [[[[[[R sigr] Rp] sp] e] s]|] eqn:E; [|reflexivity].
  apply codec_exact in E. destruct E as (E1 & -> & E3 & E4 & -> & E6 & _ & _ & E9).
  destruct H as [H|[H|[H|[H|[H|H]]]]]; try congruence; lia.
Qed.

(* a 33-byte point encoding is accepted exactly when: tag 2 or 3, x < p, x^3 + b has a square root *)
Lemma parse33_exact : forall tag xs R, length xs = 32%nat ->
  (eckey_pubkey_parse P (tag :: xs) = Some R <->
   ((tag = 2 \/ tag = 3) /\ be_val xs < cp P /\ lift_x P (be_val xs) (tag =? 3) = R /\ R <> None)).
Proof.
  intros tag xs R Hl. unfold eckey_pubkey_parse, fe_of_b32, ge_set_xo.
  change (length (tag :: xs)) with (S (length xs)). rewrite Hl.
  change (Nat.eqb 33 33) with true. change (Nat.eqb 33 65) with false. rewrite !andb_true_l, andb_false_l.
  destruct ((tag =? 2) || (tag =? 3)) eqn:Et.
  - assert (Ht : tag = 2 \/ tag = 3) by lia.
    destruct (be_val xs <? cp P) eqn:Ex.
    + destruct (lift_x P (be_val xs) (tag =? 3)) as [q|] eqn:El.
      * split; [intros [= <-]; repeat split; auto; (lia || discriminate)|intros (_ & _ & <- & _); reflexivity].
      * split; [discriminate|intros (_ & _ & <- & H); contradiction].
    + split; [discriminate|intros (_ & H & _); lia].
  - split; [discriminate|intros (H & _); lia].
Qed.

(* what "invalid point" means for a 33-byte field: wrong tag byte, x >= p, or x not on the curve *)
Lemma parse33_rejects : forall tag xs, length xs = 32%nat ->
  (tag <> 2 /\ tag <> 3) \/ cp P <= be_val xs \/ lift_x P (be_val xs) (tag =? 3) = None ->
  eckey_pubkey_parse P (tag :: xs) = None.
Proof.
  intros tag xs Hl H. destruct (eckey_pubkey_parse P (tag :: xs)) as [R|] eqn:E; auto.
  apply parse33_exact in E; auto. destruct E as (E1 & E2 & E3 & E4). exfalso.
  destruct H as [[H H']|[H|H]]; [destruct E1; congruence|lia|congruence].
Qed.

(* the specification of adaptor verification (DLC adaptor-signature spec): the five fields parse,
   the DLEQ proof (s, e) shows log_G R' = log_Y R, and R' = s'^-1 (m*G + R.x*X) (not the point at infinity) *)
Definition adaptor_verify_spec (sig162 : bytes) (X : point) (m : Z) (Y : point) : bool :=
  match adaptor_sig_deserialize_full P sig162 with
  | None => false
  | Some (R, sigr, Rp, sp, e, s) =>
    dleq_verify P s e Rp Y R &&
    (let D := padd (pmul (sc_mul P (sc_inv P sp) sigr) X) (pmul (sc_mul P (sc_inv P sp) m) G) in
     negb (is_inf D) && point_eqb D Rp)
  end.

(* the checks of verify in the order of the C code: the encryption key is looked at first (one illegal
   callback), the public key only after the DLEQ proof has been accepted *)
Lemma verify_exact : forall sig162 pkobj msg32 encobj,
  adaptor_verify P sig162 pkobj msg32 encobj =
  match adaptor_sig_deserialize_full P sig162 with
  | None => [AInt 0]
  | Some (R, sigr, Rp, sp, e, s) =>
    match pk_load encobj with
    | None => [AInt 0; AIll 1]
    | Some Y =>
      if dleq_verify P s e Rp Y R then
        match pk_load pkobj with
        | None => [AInt 0; AIll 1]
        | Some X =>
          let D := padd (pmul (sc_mul P (sc_inv P sp) sigr) X) (pmul (sc_mul P (sc_inv P sp) (fst (sc_of_b32 P msg32))) G) in
          [AInt (b2z (negb (is_inf D) && point_eqb D Rp))]
        end
      else [AInt 0]
    end
  end.
Proof.
  intros. unfold adaptor_verify.
  destruct (adaptor_sig_deserialize_full P sig162) as [[[[[[R sigr] Rp] sp] e] s]|]; [|reflexivity].
  destruct (pk_load encobj); [|reflexivity]. destruct (dleq_verify P s e Rp _ R); [|reflexivity].
  destruct (pk_load pkobj); [|reflexivity]. cbv zeta. destruct (is_inf _); reflexivity.
Qed.

Lemma verify_eq_spec : forall sig162 pkobj msg32 encobj X Y,
  pk_load pkobj = Some X -> pk_load encobj = Some Y ->
  adaptor_verify P sig162 pkobj msg32 encobj =
  [AInt (b2z (adaptor_verify_spec sig162 X (fst (sc_of_b32 P msg32)) Y))].
Proof.
  intros sig162 pkobj msg32 encobj X Y HX HY. rewrite verify_exact, HX, HY. unfold adaptor_verify_spec.
  destruct (adaptor_sig_deserialize_full P sig162) as [[[[[[R sigr] Rp] sp] e] s]|]; [|reflexivity].
  destruct (dleq_verify P s e Rp Y R); reflexivity.
Qed.

Lemma verify_ret_01 : forall sig162 pkobj msg32 encobj,
  ret_of (adaptor_verify P sig162 pkobj msg32 encobj) = 0 \/ ret_of (adaptor_verify P sig162 pkobj msg32 encobj) = 1.
Proof.
  intros. rewrite verify_exact.
  destruct (adaptor_sig_deserialize_full P sig162) as [[[[[[R sigr] Rp] sp] e] s]|]; [|left; reflexivity].
  destruct (pk_load encobj); [|left; reflexivity]. destruct (dleq_verify P s e Rp _ R); [|left; reflexivity].
  destruct (pk_load pkobj); [|left; reflexivity]. cbv zeta. destruct (_ && _); [right|left]; reflexivity.
Qed.

Lemma verify_rejects_codec : forall sig162 pkobj msg32 encobj,
  eckey_pubkey_parse P (slice 0 33 sig162) = None \/ be_val (slice 1 32 sig162) mod n = 0 \/
  eckey_pubkey_parse P (slice 33 33 sig162) = None \/ be_val (slice 66 32 sig162) = 0 \/ n <= be_val (slice 66 32 sig162) \/
  n <= be_val (slice 130 32 sig162) ->
  adaptor_verify P sig162 pkobj msg32 encobj = [AInt 0].
Proof. intros. rewrite verify_exact, codec_rejects by assumption. reflexivity. Qed.

Lemma dleq_verify_exact : forall s e p1 gen2 p2,
  dleq_verify P s e p1 gen2 p2 = true <->
  (let r1 := padd (pmul (sc_neg P e) p1) (pmul s G) in
   let r2 := padd (pmul s gen2) (pmul (sc_neg P e) p2) in
   r1 <> None /\ r2 <> None /\ sc_add P (dleq_challenge P gen2 r1 r2 p1 p2) (sc_neg P e) = 0).
Proof.
  intros. unfold dleq_verify. cbv zeta.
  set (r1 := padd _ _). set (r2 := padd _ (pmul _ p2)).
  destruct r1 as [q1|]; simpl.
  - destruct r2 as [q2|]; simpl.
    + rewrite Z.eqb_eq. split; [intros H; repeat split; auto; discriminate|tauto].
    + split; [discriminate|intros (_ & H & _); congruence].
  - split; [discriminate|intros (H & _); congruence].
Qed.

(* decrypt: every failure leaves an all-zero signature object; success is (R.x mod n, s) with s = s' / y
   normalised to the lower half *)
Lemma decrypt_exact : forall deckey32 sig162,
  adaptor_decrypt P deckey32 sig162 =
  match adaptor_sig_deserialize_part P sig162 with
  | Some (sigr, sp) =>
    if (be_val deckey32 <? n) && negb (be_val deckey32 mod n =? 0)
    then [AInt 1; ABytes (sig_obj sigr (let s := sc_mul P (sc_inv P (be_val deckey32 mod n)) sp in
                                        if sc_is_high P s then sc_neg P s else s))]
    else [AInt 0; ABytes (zeros 64)]
  | None => [AInt 0; ABytes (zeros 64)]
  end.
Proof.
  intros. unfold adaptor_decrypt, sc_of_b32. fold n. rewrite Z.ltb_antisym.
  destruct (adaptor_sig_deserialize_part P sig162) as [[sigr sp]|]; reflexivity.
Qed.

(* recover: an ECDSA signature with s = 0 or whose r differs from the adaptor's R.x mod n is refused; the implied
   encryption key (s^-1 s')*G must have the x coordinate of the given one; success returns +-(s^-1 s'), the sign
   chosen so that its public key has the parity of the encryption key *)
Lemma recover_exact : forall sigobj sig162 encobj,
  adaptor_recover P sigobj sig162 encobj =
  match adaptor_sig_deserialize_part P sig162 with
  | None => [AInt 0]
  | Some (sigr, sp) =>
    match pk_load encobj with
    | None => [AInt 0; AIll 1]
    | Some Y =>
      let s := be_val (skipn 32 sigobj) mod n in
      let y := sc_mul P (sc_inv P s) sp in
      if negb (s =? 0) && (sigr =? be_val (firstn 32 sigobj) mod n) && (px (pmul y G) =? px Y)
      then [AInt 1; ABytes (sc_to_b32 (if Bool.eqb (Z.odd (py (pmul y G))) (Z.odd (py Y)) then y else sc_neg P y))]
      else [AInt 0]
    end
  end.
Proof.
  intros. unfold adaptor_recover, sc_of_b32. fold n. cbn [fst].
  destruct (adaptor_sig_deserialize_part P sig162) as [[sigr sp]|]; [|reflexivity].
  destruct (pk_load encobj) as [Y|]; [|reflexivity]. cbv zeta.
  destruct (px _ =? px Y); cbn [negb]; [rewrite andb_true_r, andb_comm|rewrite andb_false_r]; reflexivity.
Qed.

Lemma recover_rejects_unrelated : forall sigobj sig162 encobj,
  be_val (slice 1 32 sig162) mod n <> be_val (firstn 32 sigobj) mod n ->
  ret_of (adaptor_recover P sigobj sig162 encobj) = 0.
Proof.
  intros sigobj sig162 encobj H. rewrite recover_exact.
  destruct (adaptor_sig_deserialize_part P sig162) as [[sigr sp]|] eqn:E; [|reflexivity].
  apply codec_part_exact in E. destruct E as (-> & _). apply Z.eqb_neq in H.
  destruct (pk_load encobj); [|reflexivity]. cbv zeta. rewrite H, andb_false_r. reflexivity.
Qed.

Lemma recover_success_form : forall sigobj sig162 encobj dk,
  adaptor_recover P sigobj sig162 encobj = [AInt 1; ABytes dk] ->
  exists sigr sp Y,
    adaptor_sig_deserialize_part P sig162 = Some (sigr, sp) /\ pk_load encobj = Some Y /\
    sigr = be_val (firstn 32 sigobj) mod n /\ be_val (skipn 32 sigobj) mod n <> 0 /\
    let y := sc_mul P (sc_inv P (be_val (skipn 32 sigobj) mod n)) sp in
    px (pmul y G) = px Y /\
    dk = sc_to_b32 (if Bool.eqb (Z.odd (py (pmul y G))) (Z.odd (py Y)) then y else sc_neg P y).
Proof.
  intros sigobj sig162 encobj dk. rewrite recover_exact.
  destruct (adaptor_sig_deserialize_part P sig162) as [[sigr sp]|]; [|discriminate].
  destruct (pk_load encobj) as [Y|]; [|discriminate]. cbv zeta.
  destruct (_ && _) eqn:C; [|discriminate]. intros [= <-].
  apply andb_true_iff in C. destruct C as [C Ex]. apply andb_true_iff in C. destruct C as [Es Er].
  exists sigr, sp, Y. repeat split; auto; lia.
Qed.

Lemma recover_rejects_bad_sig : forall sigobj sig162 encobj,
  adaptor_sig_deserialize_part P sig162 = None -> adaptor_recover P sigobj sig162 encobj = [AInt 0].
Proof. intros. rewrite recover_exact, H. reflexivity. Qed.

(* encrypt: an enckey object that does not load is the only argument error; after it every failure leaves 162 zero
   bytes *)
Lemma encrypt_cases : forall kind seckey32 encobj msg32 ndata,
  adaptor_encrypt P kind seckey32 encobj msg32 ndata = [AInt 0; AIll 1] /\ pk_load encobj = None \/
  adaptor_encrypt P kind seckey32 encobj msg32 ndata = [AInt 0; ABytes (zeros 162)] \/
  exists R Rp sp e s, adaptor_encrypt P kind seckey32 encobj msg32 ndata = [AInt 1; ABytes (adaptor_sig_serialize R Rp sp e s)].
Proof.
  intros. unfold adaptor_encrypt.
  destruct (pk_load encobj) as [Y|]; [|left; split; reflexivity]. right.
  destruct (match adaptor_nonce_fn kind msg32 seckey32 (ser33 Y) tag_adaptor_non ndata with Some nb => (true, nb) | None => (false, zeros 32) end) as [ret1 nonce32].
  cbv zeta.
  destruct (dleq_prove P kind _ _ Y _ ndata) as [[ds de]|]; [|left; reflexivity].
  match goal with |- context [if ?c then [AInt 1; _] else _] => destruct c end; [right; eauto 6|left; reflexivity].
Qed.

Lemma encrypt_failure_zeroes : forall kind seckey32 encobj msg32 ndata,
  adaptor_encrypt P kind seckey32 encobj msg32 ndata = [AInt 0; AIll 1] /\ pk_load encobj = None \/
  adaptor_encrypt P kind seckey32 encobj msg32 ndata = [AInt 0; ABytes (zeros 162)] \/
  exists sig, adaptor_encrypt P kind seckey32 encobj msg32 ndata = [AInt 1; ABytes sig] /\ length sig = 162%nat.
Proof.
  intros. destruct (encrypt_cases kind seckey32 encobj msg32 ndata) as [E|[E|(R & Rp & sp & e & s & E)]]; auto.
  right. right. eexists. split; [exact E|].
  unfold adaptor_sig_serialize, sc_to_b32. rewrite !app_length, !ser33_length, !be_enc_length. reflexivity.
Qed.

(* success: the nonce function returned a non-zero nonce k, the DLEQ proof for (k*G, Y, k*Y) was made, the key is
   valid, and R.x mod n and s' = k^-1 (m + R.x * x) are non-zero *)
Lemma encrypt_ok_inv : forall kind seckey32 encobj msg32 ndata sig,
  adaptor_encrypt P kind seckey32 encobj msg32 ndata = [AInt 1; ABytes sig] ->
  exists Y nb d ds de,
    pk_load encobj = Some Y /\
    adaptor_nonce_fn kind msg32 seckey32 (ser33 Y) tag_adaptor_non ndata = Some nb /\
    seckey_of_b32 P seckey32 = Some d /\
    let k := be_val nb mod n in
    let sigr := be_val (fe_to_b32 (px (pmul k Y))) mod n in
    let sp := sc_mul P (sc_inv P k) (sc_add P (sc_mul P sigr d) (be_val msg32 mod n)) in
    k <> 0 /\ sigr <> 0 /\ sp <> 0 /\
    dleq_prove P kind k (pmul k G) Y (pmul k Y) ndata = Some (ds, de) /\
    sig = adaptor_sig_serialize (pmul k Y) (pmul k G) sp de ds.
Proof.
  intros kind seckey32 encobj msg32 ndata sig. unfold adaptor_encrypt, sc_of_b32. fold n. cbn [fst].
  destruct (pk_load encobj) as [Y|]; [|discriminate].
  destruct (adaptor_nonce_fn kind msg32 seckey32 (ser33 Y) tag_adaptor_non ndata) as [nb|] eqn:En; cbv zeta; cbn [andb].
  2:{ destruct (dleq_prove _ _ _ _ _ _ _) as [[? ?]|]; discriminate. }
  destruct (be_val nb mod n =? 0) eqn:Ek; cbn [negb andb].
  { destruct (dleq_prove _ _ _ _ _ _ _) as [[? ?]|]; discriminate. }
  destruct (dleq_prove _ _ _ _ _ _ _) as [[ds de]|] eqn:Ed; [|discriminate].
  destruct (seckey_of_b32 P seckey32) as [d|]; cbn [andb]; [|discriminate].
  match goal with |- context [negb (?a =? 0) && negb (?b =? 0)] =>
    destruct (a =? 0) eqn:Er; cbn [negb andb]; [discriminate|]; destruct (b =? 0) eqn:Es; cbn [negb]; [discriminate|] end.
  apply Z.eqb_neq in Ek, Er, Es. intros [= <-]. exists Y, nb, d, ds, de. repeat split; assumption || reflexivity.
Qed.

Lemma nonce_function_null_algo : forall msg32 key32 pk33 data,
  nonce_function_ecdsa_adaptor msg32 key32 pk33 None data = None.
Proof. reflexivity. Qed.
End AdaptorProofs.
