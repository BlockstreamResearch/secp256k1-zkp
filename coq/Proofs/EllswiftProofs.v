(* Lemmas about Model/Ecdh.v and Model/Ellswift.v (property C18); none needs field theory.
   NOT proved (needs p prime and field reasoning): that decode never hits its final check (one of x1, x2, x3
   is always on the curve) and that every t returned by the inverse map decodes back to x; the model
   carries run-time checks for both (#-96). *)
From Coq Require Import ZArith List Bool Lia.
Require Import Spec.Params Spec.Field Spec.Curve Spec.Bytes Spec.Sha256 Model.Base Model.Ecdh Model.Ellswift.
Require Import Proofs.CurveLemmas.
Import ListNotations.
Local Open Scope Z_scope.

Section EcdhProofs.
Variable P : Params.
Hypothesis n_pos : 0 < cn P.

(* the secret is usable: 1 <= secret < n *)
Definition sk_ok (k : bytes) : bool := (1 <=? be_val k) && (be_val k <? cn P).

Lemma sk_ok_iff : forall k, sk_ok k = true <-> 1 <= be_val k < cn P.
Proof. intros. unfold sk_ok. lia. Qed.

(* an unusable secret is replaced by one and remembered in the flag *)
Lemma ecdh_scalar_char : forall k, 0 <= be_val k ->
  ecdh_scalar P k = (if sk_ok k then be_val k else 1, negb (sk_ok k)).
Proof.
  intros k H. unfold ecdh_scalar, sc_of_b32, sk_ok. cbv zeta.
  destruct (Z.leb_spec 1 (be_val k)), (Z.ltb_spec (be_val k) (cn P)), (Z.leb_spec (cn P) (be_val k));
    try lia; cbn [andb orb negb]; try reflexivity.
  - rewrite Z.mod_small by lia. destruct (Z.eqb_spec (be_val k) 0); [lia | reflexivity].
  - replace (be_val k) with 0 by lia. rewrite Z.mod_0_l by lia. reflexivity.
Qed.

(* secp256k1_ecdh on a loaded key, for every hash function: the hash is applied to the coordinates of
   secret*Q, or of 1*Q when the secret is unusable, and the call fails iff the hash or the secret does *)
Theorem ecdh_pt_spec : forall (h : ecdh_hashfn) Q k, 0 <= be_val k ->
  let R := pmul P (if sk_ok k then be_val k else 1) Q in
  let hr := h (fe_to_b32 (px R)) (fe_to_b32 (py R)) in
  ecdh_pt P h Q k = [AInt (b2z (negb (fst hr =? 0) && sk_ok k)); ABytes (snd hr)].
Proof.
  intros h Q k H. unfold ecdh_pt. rewrite ecdh_scalar_char by exact H. cbv zeta.
  destruct (h _ _). rewrite negb_involutive. reflexivity.
Qed.

Theorem ecdh_exact : forall (h : ecdh_hashfn) obj seckey Q,
  pk_load obj = Some Q ->
  let v := be_val seckey in
  (1 <= v < cn P ->
     let R := pmul P v Q in
     let hr := h (fe_to_b32 (px R)) (fe_to_b32 (py R)) in
     ecdh P h obj seckey = [AInt (b2z (negb (fst hr =? 0))); ABytes (snd hr)])
  /\ (v = 0 \/ cn P <= v ->
     ecdh P h obj seckey = [AInt 0; ABytes (snd (h (fe_to_b32 (px Q)) (fe_to_b32 (py Q))))]).
Proof.
  intros h obj k Q HQ v. unfold ecdh. rewrite HQ.
  split; intros H; rewrite ecdh_pt_spec by (fold v; lia); cbv zeta.
  - rewrite (proj2 (sk_ok_iff k) H), andb_true_r. reflexivity.
  - replace (sk_ok k) with false by (unfold sk_ok; fold v; lia). rewrite andb_false_r. reflexivity.
Qed.

Definition xdh_remote_x (ell_a ell_b : bytes) (party : Z) : Z :=
  let theirs := if party =? 0 then ell_b else ell_a in
  let fr := xswiftec_frac P (be_val (firstn 32 theirs) mod cp P) (be_val (skipn 32 theirs) mod cp P) in
  mmul (cp P) (fst fr) (minv (cp P) (snd fr)).

(* secp256k1_ellswift_xdh masks the secret exactly as secp256k1_ecdh does *)
Theorem xdh_spec : forall (h : xdh_hashfn) ell_a ell_b k party Q,
  lift_x P (xdh_remote_x ell_a ell_b party) false = Some Q -> 0 <= be_val k ->
  let hr := h (fe_to_b32 (px (pmul P (if sk_ok k then be_val k else 1) (Some Q)))) ell_a ell_b in
  ellswift_xdh P h ell_a ell_b k party = [AInt (b2z (negb (fst hr =? 0) && sk_ok k)); ABytes (snd hr)].
Proof.
  intros h a b k party Q HL H. pose proof (ecdh_scalar_char k H) as E.
  unfold ellswift_xdh, xdh_remote_x, ecdh_scalar, fmul in *. cbv zeta in *.
  destruct (xswiftec_frac P _ _) as [xn xd]. destruct (sc_of_b32 P k) as [s ov].
  cbn [fst snd] in HL. rewrite HL. injection E as -> ->.
  destruct (h _ _ _). rewrite negb_involutive. reflexivity.
Qed.

Theorem xdh_exact : forall (h : xdh_hashfn) ell_a ell_b seckey party x y,
  lift_x P (xdh_remote_x ell_a ell_b party) false = Some (x, y) ->
  let v := be_val seckey in
  let Q := Some (x, y) in
  (1 <= v < cn P ->
     let hr := h (fe_to_b32 (px (pmul P v Q))) ell_a ell_b in
     ellswift_xdh P h ell_a ell_b seckey party = [AInt (b2z (negb (fst hr =? 0))); ABytes (snd hr)])
  /\ (v = 0 \/ cn P <= v ->
     ellswift_xdh P h ell_a ell_b seckey party = [AInt 0; ABytes (snd (h (fe_to_b32 x) ell_a ell_b))]).
Proof.
  intros h a b k party x y HL v Q.
  split; intros H; rewrite (xdh_spec h a b k party _ HL) by (fold v; lia); cbv zeta.
  - rewrite (proj2 (sk_ok_iff k) H), andb_true_r. reflexivity.
  - replace (sk_ok k) with false by (unfold sk_ok; fold v; lia). rewrite andb_false_r. reflexivity.
Qed.
End EcdhProofs.

Section EllswiftProofs.
Variable P : Params.
Hypothesis p_pos : 0 < cp P.

Lemma decode_pt_on_curve : forall ell64 Q, decode_pt P ell64 = Some Q -> on_curve P (Some Q) = true.
Proof. intros ell Q H. exact (proj1 (lift_x_on_curve P p_pos _ _ Q H)). Qed.

(* the common tail of encode and create: no verdict, a failed model check, or an encoding that decodes to Q
   (by the model's own round-trip check) *)
Lemma ell_finish_cases : forall Q tag pre,
  ell_finish P Q tag pre = abstain \/ ell_finish P Q tag pre = model_check_failed \/
  exists ell, ell_finish P Q tag pre = [AInt 1; ABytes ell] /\ decode_pt P ell = Q.
Proof.
  intros. unfold ell_finish. destruct (elligatorswift P Q tag pre) as [e|]; [|auto].
  destruct (point_eqb _ _) eqn:E; [|auto]. right; right. exists e. split; [reflexivity | apply point_eqb_eq, E].
Qed.
End EllswiftProofs.

Example premises_c18_secp256k1 : 0 < cn secp256k1 /\ 0 < cp secp256k1 /\ Z.odd (cp secp256k1) = true.
Proof. repeat split; vm_compute; reflexivity. Qed.
