(* The Schnorr model equals BIP-340 (Spec/Bip340.v). *)
From Coq Require Import ZArith List Bool Lia.
Require Import Spec.Params Spec.Field Spec.Curve Spec.Bytes Spec.Sha256 Spec.Bip340.
Require Import Model.Base Model.Keys Model.Schnorr.
Require Import Proofs.BytesLemmas Proofs.ModLemmas Proofs.CurveLemmas Proofs.BaseLemmas Proofs.MathFacts Proofs.GroupLemmas.
Import ListNotations.
Local Open Scope Z_scope.
Local Opaque be_enc tagged_hash.

Section SchnorrProofs.
Variable P : Params.
Notation p := (cp P).
Notation n := (cn P).
Notation G := (Curve.G P).
Notation pmul := (Curve.pmul P).
Notation padd := (Curve.padd P).
Notation pneg := (Curve.pneg P).

(* schnorrsig_verify in one expression: r < p and s < n are tested before the key object is looked at *)
Lemma schnorrsig_verify_eq sig64 msg xobj :
  let r := be_val (firstn 32 sig64) in let s := be_val (skipn 32 sig64) in
  schnorrsig_verify P sig64 msg xobj =
  if negb ((r <? p) && (s <? n)) then [AInt 0] else
  match pk_load xobj with
  | None => [AInt 0; AIll 1]
  | Some Q =>
    [AInt (b2z match padd (pmul (sc_neg P (challenge P (firstn 32 sig64) msg (fe_to_b32 (px Q)))) Q) (pmul (s mod n) G) with
               | None => false
               | Some (x, y) => negb (Z.odd y) && (x =? r)
               end)]
  end.
Proof.
  cbv zeta. unfold schnorrsig_verify, fe_of_b32. rewrite sc_of_b32_eq.
  destruct (_ <? p); [|reflexivity]. destruct (_ <? n); [|reflexivity]. cbn [negb andb].
  destruct (pk_load xobj); [|reflexivity]. destruct (padd _ _) as [[x y]|]; reflexivity.
Qed.

(* premise-free: non-canonical r or s is rejected, whatever the rest *)
Lemma verify_rejects_r_ge_p sig64 msg xobj : p <= be_val (firstn 32 sig64) -> schnorrsig_verify P sig64 msg xobj = [AInt 0].
Proof. intros H. apply Z.ltb_ge in H. rewrite schnorrsig_verify_eq. cbv zeta. rewrite H. reflexivity. Qed.
Lemma verify_rejects_s_ge_n sig64 msg xobj : n <= be_val (skipn 32 sig64) -> schnorrsig_verify P sig64 msg xobj = [AInt 0].
Proof. intros H. apply Z.ltb_ge in H. rewrite schnorrsig_verify_eq. cbv zeta. rewrite H, andb_false_r. reflexivity. Qed.
(* return value is always 0 or 1 and no callback fires for a loadable key *)
Lemma verify_outcomes sig64 msg xobj Q : pk_load xobj = Some Q ->
  schnorrsig_verify P sig64 msg xobj = [AInt 0] \/ schnorrsig_verify P sig64 msg xobj = [AInt 1].
Proof.
  intros HL. rewrite schnorrsig_verify_eq, HL. cbv zeta. destruct (negb _); auto.
  destruct (match padd _ _ with None => _ | _ => _ end); auto.
Qed.

Lemma aux_none_eq_zero_aux msg32 kp : schnorrsig_sign32 P msg32 kp None = schnorrsig_sign32 P msg32 kp (Some (zeros 32)).
Proof. reflexivity. Qed.

Hypothesis MF : MathFacts P.
Hypothesis Hp256 : p <= 2 ^ 256.

(* verification on the object of an x-only key = BIP-340 Verify on the key's 32-byte encoding *)
Theorem verify_eq_bip340 x Q sig64 msg :
  lift_x P x false = Some Q -> x <> 0 ->
  bytes_okP sig64 -> length sig64 = 64%nat ->
  schnorrsig_verify P sig64 msg (pk_obj (Some Q)) = [AInt (b2z (bip340_verify P (be_enc 32 x) msg sig64))].
Proof.
  intros HL Hx0 Hok Hlen. pose proof (n_pos P MF) as Hn. pose proof (p_pos P MF) as Hp.
  destruct (lift_x_on_curve P Hp x false Q HL) as [Hoc Hfst].
  destruct Q as [qx qy]. cbn [fst] in Hfst. subst qx.
  destruct (on_curve_range P x qy Hoc) as [Hxr Hyr].
  rewrite schnorrsig_verify_eq. cbv zeta. rewrite pk_load_pk_obj by lia. cbn [px].
  unfold bip340_verify. rewrite be_val_enc32 by lia. rewrite HL, !Z.leb_antisym.
  set (r := be_val (firstn 32 sig64)). set (s := be_val (skipn 32 sig64)).
  destruct (r <? p); [|reflexivity]. destruct (s <? n) eqn:Es; [|reflexivity]. cbn [negb andb]. apply Z.ltb_lt in Es.
  assert (HsN : 0 <= s) by (apply be_val_bound, okP_skipn, Hok).
  (* the challenge: same hash input *)
  unfold challenge, sc_of_b32, fe_to_b32. cbn [fst].
  replace (be_enc 32 r) with (firstn 32 sig64)
    by (symmetry; apply be_enc_val_len; [apply okP_firstn, Hok|rewrite firstn_length, Hlen; reflexivity]).
  set (e := be_val (tagged_hash _ _) mod n).
  assert (He : 0 <= e < n) by (apply Z.mod_pos_bound; lia).
  (* the group computation *)
  rewrite Z.mod_small by lia. unfold sc_neg. rewrite (pmul_mneg_Q P MF) by (auto; lia).
  rewrite (padd_comm P MF) by (auto using oc_neg, oc_pmul, oc_G).
  destruct (padd (pmul s G) (pneg (pmul e (Some (x, qy))))) as [[rx ry]|]; [|reflexivity].
  rewrite <- Z.negb_odd. reflexivity.
Qed.
End SchnorrProofs.

(* Signing with a consistent keypair object = BIP-340 default signing, byte for byte. *)
Section SignEq.
Variable P : Params.
Notation n := (cn P).
Hypothesis Hn : 0 < n.
Hypothesis Hn256 : n <= 2 ^ 256.
Hypothesis Hp : 0 < cp P.
Hypothesis Hp256 : cp P <= 2 ^ 256.
(* G has order n (derivable from MathFacts: GroupLemmas.pmul_G_nonzero) *)
Hypothesis HGord : forall k, 0 < k < n -> pmul P k (G P) <> None.

Lemma keypair_load_obj d x y : 0 < d < n -> 0 < x < 2 ^ 256 -> 0 <= y < 2 ^ 256 ->
  keypair_load P (keypair_obj d (Some (x, y))) = Some (d, Some (x, y)).
Proof.
  intros Hd Hx Hy. unfold keypair_load, keypair_obj, sc_to_b32.
  rewrite skipn_be_enc, firstn_be_enc, pk_load_pk_obj, seckey_of_b32_enc by assumption. reflexivity.
Qed.

(* negation in the BIP's notation, applied by the parity of a y coordinate *)
Lemma cond_neg_even y d : 0 < d < n ->
  (if Z.odd y then sc_neg P d else d) = (if Z.even y then d else n - d).
Proof. intros Hd. rewrite <- Z.negb_odd. destruct (Z.odd y); [apply mneg_small; assumption|reflexivity]. Qed.

Lemma sign_eq_bip340_default d0 xP yP msg aux :
  0 < d0 < n -> pmul P d0 (G P) = Some (xP, yP) -> 0 < xP < cp P -> 0 <= yP < cp P ->
  schnorrsig_sign_internal P msg (keypair_obj d0 (Some (xP, yP))) 0 aux =
    match bip340_sign P (be_enc 32 d0) msg (match aux with Some a => a | None => zeros 32 end) with
    | Some sig => [AInt 1; ABytes sig]
    | None => [AInt 0; ABytes (zeros 64)]
    end.
Proof.
  intros Hd HQ Hx Hy.
  unfold schnorrsig_sign_internal, bip340_sign. rewrite keypair_load_obj by lia.
  rewrite be_val_enc32 by lia.
  replace (d0 =? 0) with false by lia. replace (n <=? d0) with false by lia. cbn [orb].
  rewrite HQ. cbn [py px]. rewrite cond_neg_even by assumption. set (d := if Z.even yP then d0 else n - d0).
  unfold schnorr_nonce. cbn [Z.eqb orb]. unfold nonce_bip340, sc_to_b32, fe_to_b32.
  change tag_bip340_aux with tag_aux. change tag_bip340_nonce with tag_nonce.
  set (rand := tagged_hash tag_nonce _).
  unfold sc_of_b32. cbn [fst].
  destruct (be_val rand mod n =? 0) eqn:Ek; [reflexivity|].
  set (k' := be_val rand mod n) in *.
  assert (Hk : 0 < k' < n) by (pose proof (Z.mod_pos_bound (be_val rand) n Hn); unfold k'; lia).
  destruct (pmul P k' (G P)) as [[xR yR]|] eqn:ER; [|exfalso; exact (HGord k' Hk ER)].
  cbn [py px]. rewrite cond_neg_even by assumption.
  unfold challenge, sc_of_b32, sc_add, sc_mul, madd, mmul. cbn [fst].
  change tag_bip340_challenge with tag_challenge.
  rewrite Zplus_mod_idemp_l. rewrite (Z.add_comm (_ * d)). reflexivity.
Qed.
End SignEq.
