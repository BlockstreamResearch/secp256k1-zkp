(* The ECDSA model (Model/Ecdsa.v): verification returns 1 exactly when the signature equation holds on reduced coordinates
   (ecdsa_verify_1_iff, sig_verify_exact with the two x-comparisons), what sign_inner returns for a valid and for an invalid key
   (sign_inner_ok, sign_inner_invalid), and that only msg mod n enters the signature. *)
From Coq Require Import ZArith List Bool Lia.
Require Import Spec.Params Spec.Field Spec.Curve Spec.Bytes Spec.Sha256.
Require Import Model.Base Model.Der Model.Ecdsa Proofs.ModLemmas Proofs.CurveLemmas Proofs.BaseLemmas.
Import ListNotations.
Local Open Scope Z_scope.
Local Ltac Zify.zify_post_hook ::= Z.div_mod_to_equations.

Section EcdsaProofs.
Variable P : Params.
Notation n := (cn P).
Notation p := (cp P).
Notation G := (Curve.G P).
Notation pmul := (Curve.pmul P).
Notation padd := (Curve.padd P).

(* the verdict is 1 exactly for a low-S signature that the core accepts; no callback for a loadable key *)
Lemma ecdsa_verify_1_iff sigobj msg32 pkobj Q : pk_load pkobj = Some Q ->
  ecdsa_verify P sigobj msg32 pkobj = [AInt 1] <->
  sig_obj_s sigobj <= n / 2 /\
  sig_verify P (sig_obj_r sigobj) (sig_obj_s sigobj) Q (fst (sc_of_b32 P msg32)) = true.
Proof.
  intros HL. unfold ecdsa_verify, sc_is_high. rewrite HL.
  destruct (Z.ltb_spec (n / 2) (sig_obj_s sigobj)); [split; [discriminate|lia]|].
  destruct (sig_verify P _ _ Q _); simpl; intuition discriminate.
Qed.
Lemma ecdsa_verify_ret01 sigobj msg32 pkobj Q : pk_load pkobj = Some Q ->
  ecdsa_verify P sigobj msg32 pkobj = [AInt 1] \/ ecdsa_verify P sigobj msg32 pkobj = [AInt 0].
Proof.
  intros HL. unfold ecdsa_verify. rewrite HL. destruct (sc_is_high P _); [right; reflexivity|].
  destruct (sig_verify P _ _ Q _); auto.
Qed.

(* r = 0 or s = 0 (what failed parses and failed signing leave) never verifies *)
Lemma zero_r_or_s_never_verifies sigobj msg32 pkobj :
  sig_obj_r sigobj = 0 \/ sig_obj_s sigobj = 0 ->
  ecdsa_verify P sigobj msg32 pkobj = [AInt 0] \/ ecdsa_verify P sigobj msg32 pkobj = [AInt 0; AIll 1].
Proof.
  intros H. unfold ecdsa_verify.
  destruct (sc_is_high P _); [left; reflexivity|]. destruct (pk_load pkobj); [left|right; reflexivity].
  unfold sig_verify. destruct H as [-> | ->]; [reflexivity|]. rewrite orb_true_r. reflexivity.
Qed.

(* a successful run of the retry loop stops at the first attempt whose nonce is a valid scalar giving
   non-zero r and s; no earlier attempt made the callback fail *)
Lemma sign_loop_ok fuel c kind msg32 seckey data d m r s recid :
  sign_loop P fuel c kind msg32 seckey data d m = SignOk r s recid ->
  exists c' nonce32 k, (c <= c')%nat /\ nonce_fn P kind msg32 seckey data c' = Some nonce32 /\
     seckey_of_b32 P nonce32 = Some k /\ sig_sign P d m k = (true, r, s, recid) /\
     forall j, (c <= j < c')%nat -> nonce_fn P kind msg32 seckey data j <> None.
Proof.
  revert c. induction fuel as [|f IH]; intros c; simpl; [discriminate|].
  destruct (nonce_fn P kind msg32 seckey data c) as [nonce32|] eqn:En; [|discriminate].
  destruct (seckey_of_b32 P nonce32) as [k|] eqn:Ek;
    [destruct (sig_sign P d m k) as [[[[] r'] s'] recid'] eqn:Es|]; intros H.
  1: { inversion H; subst. exists c, nonce32, k. repeat split; auto. intros j Hj. lia. }
  (* otherwise the attempt at c is passed over: the witness comes from the run that starts at c + 1 *)
  all: destruct (IH _ H) as (c' & nn & k' & A & B & C & D & E); exists c', nn, k'.
  all: repeat split; auto; try lia.
  all: intros j Hj; destruct (Nat.eq_dec j c) as [->|]; [congruence|apply E; lia].
Qed.

(* the loop sees the message bytes only through the nonce function *)
Lemma sign_loop_ext fuel kind msg32 msg32' seckey data d m :
  (forall j, nonce_fn P kind msg32 seckey data j = nonce_fn P kind msg32' seckey data j) ->
  forall c, sign_loop P fuel c kind msg32 seckey data d m = sign_loop P fuel c kind msg32' seckey data d m.
Proof.
  intros E. induction fuel as [|f IH]; intros c; simpl; [reflexivity|].
  rewrite E. destruct (nonce_fn P kind msg32' seckey data c) as [b|]; [|reflexivity].
  destruct (seckey_of_b32 P b) as [k|]; [|apply IH].
  destruct (sig_sign P d m k) as [[[[] r] s] recid]; [reflexivity|apply IH].
Qed.
(* ... and the RFC 6979 nonce functions see them only modulo n *)
Lemma nonce_fn_msg_mod kind msg32 msg32' seckey data j : kind = 0 \/ kind = 1 ->
  fst (sc_of_b32 P msg32) = fst (sc_of_b32 P msg32') ->
  nonce_fn P kind msg32 seckey data j = nonce_fn P kind msg32' seckey data j.
Proof. intros [-> | ->] H; unfold nonce_fn, nonce_rfc6979; cbn [Z.eqb Pos.eqb orb]; rewrite H; reflexivity. Qed.

Lemma sign_depends_on_msg_mod_n kind msg32 msg32' seckey data :
  (kind = 0 \/ kind = 1) ->
  fst (sc_of_b32 P msg32) = fst (sc_of_b32 P msg32') ->
  ecdsa_sign P kind msg32 seckey data = ecdsa_sign P kind msg32' seckey data.
Proof.
  intros Hk H. unfold ecdsa_sign, sign_inner. rewrite <- H.
  rewrite (sign_loop_ext _ kind msg32 msg32'); [reflexivity|]. intros j. apply nonce_fn_msg_mod; assumption.
Qed.

Lemma sign_inner_invalid kind msg32 seckey data : seckey_of_b32 P seckey = None ->
  sign_inner P kind msg32 seckey data = SignFail \/ sign_inner P kind msg32 seckey data = SignOutOfFuel.
Proof. intros H. unfold sign_inner. rewrite H. destruct (sign_loop P _ _ _ _ _ _ _ _); auto. Qed.
Lemma sign_inner_ok kind msg32 seckey data r s recid :
  sign_inner P kind msg32 seckey data = SignOk r s recid ->
  exists d, seckey_of_b32 P seckey = Some d /\
    sign_loop P sign_fuel 0 kind msg32 seckey data d (fst (sc_of_b32 P msg32)) = SignOk r s recid.
Proof.
  unfold sign_inner. destruct (seckey_of_b32 P seckey) as [d|]; destruct (sign_loop P _ _ _ _ _ _ _ _) eqn:E;
    try discriminate. intros H. exists d. rewrite <- H. auto.
Qed.

(* coordinates produced by the group operations are reduced *)
Definition inr (Q : point) : Prop :=
  match Q with Some (x, y) => 0 <= x < p /\ 0 <= y < p | None => True end.

Lemma on_curve_inr Q : on_curve P Q = true -> inr Q.
Proof. destruct Q as [[x y]|]; [apply on_curve_range|exact (fun _ => I)]. Qed.

Hypothesis Hp : 0 < p.

Lemma pdbl_inr Q : inr (pdbl P Q).
Proof.
  destruct Q as [[x y]|]; simpl; [|exact I]. destruct (y =? 0); simpl; [exact I|].
  split; apply msub_range, Hp.
Qed.
Lemma padd_inr A B : inr A -> inr B -> inr (padd A B).
Proof.
  destruct A as [[x1 y1]|], B as [[x2 y2]|]; simpl; auto.
  intros HA HB. destruct (x1 =? x2).
  - destruct (y1 =? y2); [|exact I]. apply (pdbl_inr (Some (x1, y1))).
  - simpl. split; apply msub_range, Hp.
Qed.
Lemma pneg_inr A : inr A -> inr (pneg P A).
Proof. destruct A as [[x y]|]; simpl; auto. intros [H1 H2]. split; [exact H1|apply mneg_range, Hp]. Qed.
Lemma pmul_pos_inr k Q : inr Q -> inr (pmul_pos P k Q).
Proof.
  intros HQ. induction k; simpl; auto using pdbl_inr, padd_inr.
Qed.
Lemma pmul_inr k Q : inr Q -> inr (pmul k Q).
Proof. intros HQ. destruct k; simpl; auto using pmul_pos_inr, pneg_inr. Qed.

Hypothesis Hn : 0 < n.

Lemma sig_sign_low_s d m k ok r s recid : sig_sign P d m k = (ok, r, s, recid) -> 0 <= s <= n / 2.
Proof.
  unfold sig_sign. destruct (pmul k G) as [[x y]|]; intros E; inversion E; [|lia].
  apply sc_low_s, sc_mul_range; exact Hn.
Qed.

Hypothesis Hnp : n < p.
Hypothesis Hp2n : p < 2 * n.

Lemma two_compares_iff_mod x r : 0 <= x < p -> 0 <= r < n ->
  ((x = r \/ (r < p - n /\ x = r + n)) <-> x mod n = r).
Proof.
  intros Hx Hr. split.
  - intros [->|[H ->]].
    + apply Z.mod_small; lia.
    + replace (r + n) with (r + 1 * n) by lia. rewrite Z.mod_add by lia. apply Z.mod_small; lia.
  - intros H. assert (x = n * (x / n) + x mod n) by (apply Z.div_mod; lia).
    assert (0 <= x / n) by (apply Z.div_pos; lia).
    assert (x / n < 2) by (apply Z.div_lt_upper_bound; lia).
    assert (x / n = 0 \/ x / n = 1) as [E|E] by lia; rewrite E in *; lia.
Qed.
Lemma two_compares_b x r : 0 <= x < p -> 0 <= r < n ->
  (x =? r) || ((r <? p - n) && (x =? r + n)) = (x mod n =? r).
Proof.
  intros Hx Hr. apply eq_true_iff_eq.
  rewrite orb_true_iff, andb_true_iff, !Z.eqb_eq, Z.ltb_lt. apply two_compares_iff_mod; assumption.
Qed.

Definition verify_point (r s : Z) (Q : point) (m : Z) : point :=
  let sn := sc_inv P s in padd (pmul (sc_mul P sn r) Q) (pmul (sc_mul P sn m) G).

Lemma sig_verify_exact r s Q m : 0 <= r < n -> inr Q -> inr G ->
  sig_verify P r s Q m = true <->
  (r <> 0 /\ s <> 0 /\ exists x y, verify_point r s Q m = Some (x, y) /\ x mod n = r).
Proof.
  intros Hr HQ HG. unfold sig_verify, verify_point.
  destruct (Z.eqb_spec r 0); [split; [discriminate|tauto]|].
  destruct (Z.eqb_spec s 0); [split; [discriminate|tauto]|]. cbn [orb].
  set (R := padd _ _).
  assert (HR : inr R) by (apply padd_inr; apply pmul_inr; assumption).
  destruct R as [[x y]|].
  - rewrite two_compares_b, Z.eqb_eq by (apply HR || exact Hr). split; [eauto 6|].
    intros (_ & _ & x' & y' & E & H). inversion E; subst x' y'. exact H.
  - split; [discriminate|]. intros (_ & _ & x & y & E & _). discriminate.
Qed.

(* API level: exact acceptance condition, and no callback unless the key object is the zero object *)
Lemma ecdsa_verify_exact sigobj msg32 pkobj Q :
  pk_load pkobj = Some Q -> inr Q -> inr G -> 0 <= sig_obj_r sigobj < n ->
  let r := sig_obj_r sigobj in let s := sig_obj_s sigobj in let m := fst (sc_of_b32 P msg32) in
  (ecdsa_verify P sigobj msg32 pkobj = [AInt 1] <->
     (r <> 0 /\ s <> 0 /\ s <= n / 2 /\ exists x y, verify_point r s Q m = Some (x, y) /\ x mod n = r))
  /\ (ecdsa_verify P sigobj msg32 pkobj = [AInt 1] \/ ecdsa_verify P sigobj msg32 pkobj = [AInt 0]).
Proof.
  intros HL HQ HG Hr. cbv zeta. split; [|exact (ecdsa_verify_ret01 _ _ _ _ HL)].
  rewrite (ecdsa_verify_1_iff _ _ _ _ HL), (sig_verify_exact _ _ _ _ Hr HQ HG). tauto.
Qed.
End EcdsaProofs.
