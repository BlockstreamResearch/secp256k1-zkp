(* Lemmas about Model/Rangeproof.v (properties C09 and C10).  All statements are about the
   executable model, for all inputs; none needs a premise about the curve. *)
From Coq Require Import ZArith List Bool Lia.
Require Import Spec.Params Spec.Field Spec.Curve Spec.Bytes Spec.Sha256.
Require Import Model.Base Model.Pedersen Model.Borromean Model.Rangeproof.
Require Import Proofs.BytesLemmas Proofs.BaseLemmas.
Import ListNotations.
Local Open Scope Z_scope.
(* lia meets / and mod in the ring-layout and size formulas *)
Local Ltac Zify.zify_post_hook ::= Z.div_mod_to_equations.

Lemma shiftr_u64max m : 0 <= m <= 64 -> Z.shiftr U64MAX (64 - m) = 2 ^ m - 1.
Proof.
  intros H. rewrite Z.shiftr_div_pow2 by lia. unfold U64MAX.
  replace (2 ^ 64) with (2 ^ m * 2 ^ (64 - m)) by (rewrite <- Z.pow_add_r by lia; f_equal; lia).
  assert (0 < 2 ^ (64 - m)) by (apply Z.pow_pos_nonneg; lia).
  assert (0 < 2 ^ m) by (apply Z.pow_pos_nonneg; lia).
  symmetry. apply Z.div_unique with (r := 2 ^ (64 - m) - 1); nia.
Qed.

Lemma scale_loop_spec k : forall mx sc mx' sc', 0 <= mx <= U64MAX ->
  scale_loop k mx sc = Some (mx', sc') -> mx' = mx * 10 ^ Z.of_nat k /\ mx <= mx' <= U64MAX.
Proof.
  induction k as [|k IH]; intros mx sc mx' sc' Hmx H.
  - injection H as <- <-. rewrite Z.mul_1_r. lia.
  - cbn [scale_loop] in H. destruct (Z.ltb_spec (U64MAX / 10) mx) as [E|E]; [discriminate|].
    apply IH in H; [|unfold U64MAX in *; lia]. rewrite Nat2Z.inj_succ, Z.pow_succ_r by lia. lia.
Qed.

(* what getheader read, and the checks it made, when it returns a header *)
Record header_ok (proof : bytes) (h : header) : Prop := {
  ho_len : 65 <= Z.of_nat (length proof);
  ho_bit7 : Z.land (nth 0 proof 0) 128 = 0;
  ho_exp : h_exp h = if Z.land (nth 0 proof 0) 64 =? 0 then -1 else Z.land (nth 0 proof 0) 31;
  ho_exp18 : h_exp h <= 18;
  ho_mant : h_mantissa h = if Z.land (nth 0 proof 0) 64 =? 0 then 0 else nth 1 proof 0 + 1;
  ho_mant64 : h_mantissa h <= 64;
  ho_off : h_offset h = (if Z.land (nth 0 proof 0) 64 =? 0 then 1 else 2) + (if Z.land (nth 0 proof 0) 32 =? 0 then 0 else 8);
  ho_min : h_min h = if Z.land (nth 0 proof 0) 32 =? 0 then 0
                     else be_val (slice (if Z.land (nth 0 proof 0) 64 =? 0 then 1 else 2) 8 proof);
  ho_max : exists mx, scale_loop (Z.to_nat (h_exp h)) (Z.shiftr U64MAX (64 - h_mantissa h)) 1 = Some (mx, h_scale h)
                      /\ mx <= U64MAX - h_min h /\ h_max h = mx + h_min h }.

Lemma getheader_Some proof h : getheader proof = Some h -> header_ok proof h.
Proof.
  unfold getheader. destruct (_ || _) eqn:E0; [discriminate|].
  apply orb_false_iff in E0 as [E0%Z.ltb_ge E1%negb_false_iff%Z.eqb_eq].
  (* only a header with bit 6 set has exponent and mantissa checks; from the scale loop on both kinds go the same way *)
  destruct (Z.land (nth 0 proof 0) 64 =? 0) eqn:E64; cbn [negb].
  2: destruct (Z.ltb_spec 18 (Z.land (nth 0 proof 0) 31)); [discriminate|].
  2: destruct (Z.ltb_spec 64 (nth 1 proof 0 + 1)); [discriminate|].
  all: cbv iota beta; destruct (scale_loop _ _ 1) as [[mx sc]|] eqn:Es; [|discriminate].
  all: destruct (Z.land (nth 0 proof 0) 32 =? 0) eqn:E32; cbn [negb]; [|destruct (_ <? 8); [discriminate|]].
  all: destruct (_ <? _) eqn:Eo; [discriminate|]; apply Z.ltb_ge in Eo; cbn [Z.to_nat] in Eo; intros [= <-].
  all: constructor; cbn [h_exp h_mantissa h_min h_max h_offset h_scale]; rewrite ?E64, ?E32; auto; try lia.
  all: exists mx; split; [exact Es|lia].
Qed.

(* the reported range did not wrap: max = min + (2^mantissa - 1) * 10^exp <= 2^64 - 1 over the integers *)
Lemma getheader_range proof h : bytes_okP proof -> getheader proof = Some h ->
  0 <= h_min h /\ h_min h <= h_max h /\ h_max h <= U64MAX /\
  h_max h = h_min h + (if h_mantissa h =? 0 then 0 else (2 ^ h_mantissa h - 1) * 10 ^ (Z.max 0 (h_exp h))).
Proof.
  intros Hok [_ _ He He18 Hm Hm64 _ Hmin (mx & Hs & Hle & ->)]%getheader_Some.
  set (b0 := nth 0 proof 0) in *. pose proof (nth_okP 1 proof Hok) as Hb1.
  assert (Hl : 0 <= Z.land b0 31) by (apply Z.land_nonneg; right; lia).
  assert (Hm0 : 0 <= h_mantissa h /\ -1 <= h_exp h /\ (h_mantissa h = 0 -> h_exp h = -1))
    by (destruct (Z.land b0 64 =? 0); lia).
  assert (Hmv : 0 <= h_min h < 2 ^ 64).
  { rewrite Hmin. destruct (Z.land b0 32 =? 0); [lia|]. exact (be_val_slice_bound _ 8 proof Hok). }
  rewrite shiftr_u64max in Hs by lia.
  assert (0 < 2 ^ h_mantissa h <= 2 ^ 64) by (split; [apply Z.pow_pos_nonneg|apply Z.pow_le_mono_r]; lia).
  apply scale_loop_spec in Hs as [-> [Hge _]]; [|unfold U64MAX; lia].
  replace (Z.of_nat (Z.to_nat (h_exp h))) with (Z.max 0 (h_exp h)) in * by lia.
  destruct (Z.eqb_spec (h_mantissa h) 0) as [E|E]; [rewrite E in *; change (2 ^ 0) with 1 in *|]; unfold U64MAX in *; lia.
Qed.

(* H : (if c then failure else rest) = success; goes on with E : c = false *)
Local Ltac passed H E := match type of H with (if ?c then _ else _) = _ => destruct c eqn:E; [discriminate|] end.

Section Verify.
Variable P : Params.
Notation n := (cn P).
Notation p := (cp P).

(* the layout an accepted proof must have, from its header: rings, sign bytes, where the digit
   commitments and the ring scalars start *)
Definition v_rings (h : header) : Z := Z.of_nat (length (verify_layout (h_mantissa h))).
Definition v_nsign (h : header) : nat := Z.to_nat (Z.shiftr (v_rings h + 6) 3).
Definition v_xoff (h : header) : nat := (Z.to_nat (h_offset h) + v_nsign h)%nat.
Definition v_soff (h : header) : nat := (v_xoff h + 32 * Z.to_nat (v_rings h - 1) + 32)%nat.

(* exact length of an acceptable proof, as a function of its header *)
Definition expected_len (h : header) : Z :=
  let rsizes := verify_layout (h_mantissa h) in
  let rings := Z.of_nat (length rsizes) in
  (* header, sign bytes, rings-1 digit commitments, e0, one scalar per public key *)
  Z.of_nat (Z.to_nat (h_offset h) + Z.to_nat (Z.shiftr (rings + 6) 3) + 32 * Z.to_nat (rings - 1)) + 32
  + 32 * Z.of_nat (sum_nat rsizes).

Record layout_ok (proof : bytes) (h : header) : Prop := {
  lo_spare : Z.land (v_rings h - 1) 7 <> 0 ->
             Z.shiftr (nth (Nat.pred (v_nsign h)) (slice (Z.to_nat (h_offset h)) (v_nsign h) proof) 0)
                      (Z.land (v_rings h - 1) 7) = 0;
  lo_digits : forall k, (k < Z.to_nat (v_rings h - 1))%nat ->
              be_val (slice (v_xoff h + 32 * k) 32 proof) < p /\
              x_on_curve P (be_val (slice (v_xoff h + 32 * k) 32 proof)) = true;
  lo_scalars : forall k, (k < sum_nat (verify_layout (h_mantissa h)))%nat ->
               be_val (slice (v_soff h + 32 * k) 32 proof) < n;
  lo_len : Z.of_nat (length proof) = expected_len h }.

Lemma parse_scalars_lt cnt : forall off b l, parse_scalars P cnt (skipn off b) = Some l ->
  forall k, (k < cnt)%nat -> be_val (slice (off + 32 * k) 32 b) < n.
Proof.
  induction cnt as [|cnt IH]; intros off b l H k Hk; [lia|].
  cbn [parse_scalars] in H.
  destruct (Z.leb_spec n (be_val (firstn 32 (skipn off b)))) as [E|E];
    [rewrite (sc_of_b32_ov P _ E) in H; discriminate|rewrite (sc_of_b32_ok P _ E) in H].
  destruct (parse_scalars P cnt _) as [l'|] eqn:E2; [|discriminate]. rewrite skipn_skipn in E2.
  destruct k as [|k]; [rewrite Nat.mul_0_r, Nat.add_0_r; exact E|].
  replace (off + 32 * S k)%nat with (off + 32 + 32 * k)%nat by lia. apply (IH _ _ _ E2). lia.
Qed.

Lemma parse_digits_ok cnt : forall i signs off b pts hashed,
  parse_digits P cnt i signs (skipn off b) = Some (pts, hashed) ->
  forall k, (k < cnt)%nat ->
    be_val (slice (off + 32 * k) 32 b) < p /\ x_on_curve P (be_val (slice (off + 32 * k) 32 b)) = true.
Proof.
  induction cnt as [|cnt IH]; intros i signs off b pts hashed H k Hk; [lia|].
  cbn [parse_digits] in H. unfold fe_of_b32, ge_set_xquad in H.
  destruct (Z.ltb_spec (be_val (firstn 32 (skipn off b))) p) as [E|E]; [|discriminate].
  destruct (fe_sqrt P _) as [y []] eqn:Es; cbn [negb] in H; [|discriminate].
  destruct (parse_digits P cnt _ _ _) as [[pts' hashed']|] eqn:E2; [|discriminate]. rewrite skipn_skipn in E2.
  destruct k as [|k].
  - rewrite Nat.mul_0_r, Nat.add_0_r. unfold x_on_curve, fe_is_square, slice. rewrite Es. auto.
  - replace (off + 32 * S k)%nat with (off + 32 + 32 * k)%nat by lia. apply (IH _ _ _ _ _ _ E2). lia.
Qed.

(* everything the verifier checked before the ring signature, when it accepts *)
Lemma verify_ok_spec nonce mcap commit proof extra genp v :
  rangeproof_verify_impl P nonce mcap commit proof extra genp = ROk v ->
  exists h, getheader proof = Some h /\ v_min v = h_min h /\ v_max v = h_max h /\ layout_ok proof h.
Proof.
  intros H. unfold rangeproof_verify_impl in H.
  destruct (getheader proof) as [h|] eqn:Eh; [|discriminate]. exists h. split; [reflexivity|].
  cbv zeta in H. rewrite Nat2Z.id in H. fold (v_rings h) (v_nsign h) in H. fold (v_xoff h) in H.
  passed H E1. passed H E2.
  destruct (parse_digits P _ 0 _ _) as [[sent hashed]|] eqn:E3 in H; [|discriminate]. passed H E4.
  destruct (parse_scalars P _ _) as [s|] eqn:E5 in H; [|discriminate]. passed H E6.
  destruct (borromean_verify_ev P _ _ _ _ _ _) as [ev|] eqn:E7 in H; [|discriminate].
  assert (Hv : v_min v = h_min h /\ v_max v = h_max h).
  { destruct nonce as [nc|]; [|injection H as <-; auto].
    destruct (rewind_inner P mcap ev s _ nc commit _ genp) as [[[bl vv] msg]| |]; try discriminate.
    passed H Ea. passed H Eb. injection H as <-. auto. }
  destruct Hv as [-> ->]. do 2 (split; [reflexivity|]). constructor.
  - intros Hne. apply andb_false_iff in E2 as [E2|E2]; apply negb_false_iff, Z.eqb_eq in E2; [contradiction|exact E2].
  - exact (parse_digits_ok _ _ _ _ _ _ _ E3).
  - exact (parse_scalars_lt _ _ _ _ E5).
  - apply negb_false_iff, Z.eqb_eq in E6. rewrite <- E6. unfold expected_len, v_xoff, v_nsign, v_rings. lia.
Qed.

(* plain verification never runs out of fuel (the only fuel is in the rewind path) *)
Lemma verify_no_fuel mcap commit proof extra genp :
  rangeproof_verify_impl P None mcap commit proof extra genp <> RFuel.
Proof.
  intros H. unfold rangeproof_verify_impl in H. cbv zeta in H.
  repeat match type of H with
  | context[match ?x with _ => _ end] => destruct x; try discriminate
  end.
Qed.

(* a proof is rejected unless its header passes every check of getheader *)
Lemma verify_fails_unless_header nonce mcap commit proof extra genp :
  (forall h, ~ header_ok proof h) -> rangeproof_verify_impl P nonce mcap commit proof extra genp = RFail.
Proof.
  intros H. unfold rangeproof_verify_impl.
  destruct (getheader proof) as [h|] eqn:E; [destruct (H h (getheader_Some _ _ E))|reflexivity].
Qed.

(* the header fixes the length, and the header is read from the first 10 of at least 65 bytes: an
   accepted proof cannot be extended to another accepted proof *)
Lemma accepted_length_unique {nonce mcap commit extra genp v nonce' mcap' commit' extra' genp' v' proof t} :
  rangeproof_verify_impl P nonce mcap commit proof extra genp = ROk v ->
  rangeproof_verify_impl P nonce' mcap' commit' (proof ++ t) extra' genp' = ROk v' -> t = [].
Proof.
  intros (h & Hh%getheader_Some & _ & _ & L)%verify_ok_spec (h' & Hh'%getheader_Some & _ & _ & L')%verify_ok_spec.
  pose proof (ho_len _ _ Hh) as H65. pose proof (lo_len _ _ L) as E. pose proof (lo_len _ _ L') as E'.
  assert (expected_len h' = expected_len h) as Ee.
  { unfold expected_len. rewrite (ho_mant _ _ Hh'), (ho_off _ _ Hh'), (ho_mant _ _ Hh), (ho_off _ _ Hh).
    rewrite !app_nth1 by lia. reflexivity. }
  rewrite Ee, app_length, Nat2Z.inj_add in E'. destruct t; [reflexivity|]. cbn [length] in E'. lia.
Qed.

Lemma rejects_reserved_header_bit nonce mcap commit proof extra genp :
  Z.land (nth 0 proof 0) 128 <> 0 -> rangeproof_verify_impl P nonce mcap commit proof extra genp = RFail.
Proof.
  intros H. apply verify_fails_unless_header. intros h E. exact (H (ho_bit7 _ _ E)).
Qed.

Lemma rejects_exp_above_18 nonce mcap commit proof extra genp :
  Z.land (nth 0 proof 0) 64 <> 0 -> 18 < Z.land (nth 0 proof 0) 31 ->
  rangeproof_verify_impl P nonce mcap commit proof extra genp = RFail.
Proof.
  intros H64%Z.eqb_neq H. apply verify_fails_unless_header. intros h E.
  pose proof (ho_exp _ _ E). pose proof (ho_exp18 _ _ E). rewrite H64 in *. lia.
Qed.

Lemma rejects_mantissa_above_64 nonce mcap commit proof extra genp :
  Z.land (nth 0 proof 0) 64 <> 0 -> 64 < nth 1 proof 0 + 1 ->
  rangeproof_verify_impl P nonce mcap commit proof extra genp = RFail.
Proof.
  intros H64%Z.eqb_neq H. apply verify_fails_unless_header. intros h E.
  pose proof (ho_mant _ _ E). pose proof (ho_mant64 _ _ E). rewrite H64 in *. lia.
Qed.

(* an accepted proof reports a range inside [0, 2^64): min + (2^mantissa - 1) * 10^exp did not overflow *)
Lemma rejects_range_overflow nonce mcap commit proof extra genp v :
  bytes_okP proof -> rangeproof_verify_impl P nonce mcap commit proof extra genp = ROk v ->
  exists h, getheader proof = Some h /\
    0 <= v_min v /\ v_min v <= v_max v /\ v_max v <= U64MAX /\
    v_max v = v_min v + (if h_mantissa h =? 0 then 0 else (2 ^ h_mantissa h - 1) * 10 ^ (Z.max 0 (h_exp h))).
Proof.
  intros Hok (h & Hh & -> & -> & _)%verify_ok_spec. exists h. split; [exact Hh|exact (getheader_range proof h Hok Hh)].
Qed.

Lemma verify_range_eq_info nonce mcap commit proof extra genp v :
  rangeproof_verify_impl P nonce mcap commit proof extra genp = ROk v ->
  exists e m, rangeproof_info proof = [AInt 1; AInt e; AInt m; AInt (v_min v); AInt (v_max v)].
Proof.
  intros (h & Hh & -> & -> & _)%verify_ok_spec. exists (h_exp h), (h_mantissa h).
  unfold rangeproof_info. rewrite Hh. reflexivity.
Qed.

(* every ring scalar of an accepted proof is below n: the re-encoding s + n is rejected *)
Lemma rejects_scalar_ge_n nonce mcap commit proof extra genp v :
  rangeproof_verify_impl P nonce mcap commit proof extra genp = ROk v ->
  exists h, getheader proof = Some h /\
    let rsizes := verify_layout (h_mantissa h) in
    let rings := Z.of_nat (length rsizes) in
    let soff := (Z.to_nat (h_offset h) + Z.to_nat (Z.shiftr (rings + 6) 3) + 32 * Z.to_nat (rings - 1) + 32)%nat in
    forall k, (k < sum_nat rsizes)%nat -> be_val (slice (soff + 32 * k) 32 proof) < n.
Proof. intros (h & Hh & _ & _ & L)%verify_ok_spec. exists h. split; [exact Hh|exact (lo_scalars _ _ L)]. Qed.

Lemma rejects_x_ge_p_or_offcurve nonce mcap commit proof extra genp v :
  rangeproof_verify_impl P nonce mcap commit proof extra genp = ROk v ->
  exists h, getheader proof = Some h /\
    let rings := Z.of_nat (length (verify_layout (h_mantissa h))) in
    let xoff := (Z.to_nat (h_offset h) + Z.to_nat (Z.shiftr (rings + 6) 3))%nat in
    forall k, (k < Z.to_nat (rings - 1))%nat ->
      be_val (slice (xoff + 32 * k) 32 proof) < p /\ x_on_curve P (be_val (slice (xoff + 32 * k) 32 proof)) = true.
Proof. intros (h & Hh & _ & _ & L)%verify_ok_spec. exists h. split; [exact Hh|exact (lo_digits _ _ L)]. Qed.

Lemma rejects_spare_sign_bits nonce mcap commit proof extra genp v :
  rangeproof_verify_impl P nonce mcap commit proof extra genp = ROk v ->
  exists h, getheader proof = Some h /\
    let rings := Z.of_nat (length (verify_layout (h_mantissa h))) in
    let nsign := Z.to_nat (Z.shiftr (rings + 6) 3) in
    Z.land (rings - 1) 7 <> 0 ->
    Z.shiftr (nth (Nat.pred nsign) (slice (Z.to_nat (h_offset h)) nsign proof) 0) (Z.land (rings - 1) 7) = 0.
Proof. intros (h & Hh & _ & _ & L)%verify_ok_spec. exists h. split; [exact Hh|exact (lo_spare _ _ L)]. Qed.

Lemma accepted_length_exact nonce mcap commit proof extra genp v :
  rangeproof_verify_impl P nonce mcap commit proof extra genp = ROk v ->
  exists h, getheader proof = Some h /\ Z.of_nat (length proof) = expected_len h.
Proof. intros (h & Hh & _ & _ & L)%verify_ok_spec. exists h. split; [exact Hh|exact (lo_len _ _ L)]. Qed.

Lemma rejects_trailing_bytes commit proof extra genp v t :
  rangeproof_verify_impl P None None commit proof extra genp = ROk v -> t <> [] ->
  rangeproof_verify_impl P None None commit (proof ++ t) extra genp = RFail.
Proof.
  intros H Ht. destruct (rangeproof_verify_impl P None None commit (proof ++ t) extra genp) as [v'| |] eqn:E.
  - destruct (Ht (accepted_length_unique H E)).
  - reflexivity.
  - destruct (verify_no_fuel _ _ _ _ _ E).
Qed.

(* same for truncation: no proper prefix of an accepted proof is accepted *)
Lemma rejects_truncated commit proof extra genp v t :
  rangeproof_verify_impl P None None commit (proof ++ t) extra genp = ROk v -> t <> [] ->
  rangeproof_verify_impl P None None commit proof extra genp = RFail.
Proof.
  intros H Ht. destruct (rangeproof_verify_impl P None None commit proof extra genp) as [v'| |] eqn:E.
  - destruct (Ht (accepted_length_unique E H)).
  - reflexivity.
  - destruct (verify_no_fuel _ _ _ _ _ E).
Qed.
End Verify.

Lemma exp_loop_spec fuel : forall i v v2 i' v', 0 <= v ->
  exp_loop fuel i v v2 = (i', v') -> i <= i' <= i + Z.of_nat fuel /\ v' = v / 10 ^ (i' - i).
Proof.
  induction fuel as [|f IH]; intros i v v2 i' v' Hv H; cbn [exp_loop] in H; [|destruct (v2 <=? U64MAX / 10)];
    try (injection H as <- <-; rewrite Z.sub_diag, Z.pow_0_r, Z.div_1_r; lia).
  apply IH in H as [H1 ->]; [|apply Z.div_pos; lia]. split; [lia|].
  replace (i' - i) with (1 + (i' - (i + 1))) by lia. rewrite Z.pow_add_r, Z.pow_1_r by lia.
  assert (0 < 10 ^ (i' - (i + 1))) by (apply Z.pow_pos_nonneg; lia). rewrite Z.div_div by lia. reflexivity.
Qed.

Lemma ite_ltb_min a b : (if a <? b then a else b) = Z.min a b.
Proof. destruct (Z.ltb_spec a b); lia. Qed.
Lemma ite_ltb_max a b : (if a <? b then b else a) = Z.max a b.
Proof. destruct (Z.ltb_spec a b); lia. Qed.

Lemma sum_nat_ring_list_le rings (f : Z -> nat) c :
  (forall i, (f i <= c)%nat) -> (sum_nat (ring_list rings f) <= c * Z.to_nat rings)%nat.
Proof.
  intros Hf. unfold ring_list. rewrite <- (seq_length (Z.to_nat rings) 0) at 2.
  induction (seq 0 (Z.to_nat rings)) as [|x l IH]; simpl; [lia|]. specialize (Hf (Z.of_nat x)). lia.
Qed.

Lemma ring_list_length {A} rings (f : Z -> A) : length (ring_list rings f) = Z.to_nat rings.
Proof. unfold ring_list. rewrite map_length, seq_length. reflexivity. Qed.

Lemma u64_small x : 0 <= x < 2 ^ 64 -> u64 x = x.
Proof. intros. unfold u64. apply Z.mod_small. lia. Qed.

Lemma pow10_le_u64 e : 0 <= e <= 18 -> 0 < 10 ^ e < 2 ^ 64.
Proof.
  intros H. split; [apply Z.pow_pos_nonneg; lia|].
  assert (10 ^ e <= 10 ^ 18) by (apply Z.pow_le_mono_r; lia).
  assert (10 ^ 18 < 2 ^ 64) by reflexivity. lia.
Qed.

Lemma clz64_range x : 0 < x < 2 ^ 64 -> 0 <= clz64 x <= 63.
Proof.
  intros H. unfold clz64. assert (0 <= Z.log2 x) by apply Z.log2_nonneg.
  assert (Z.log2 x < 64) by (apply Z.log2_lt_pow2; lia). lia.
Qed.

(* the number of bits of v, as sign and max_size compute it *)
Lemma bitlen_spec v : 0 <= v < 2 ^ 64 ->
  let m := if v =? 0 then 1 else 64 - clz64 v in 1 <= m <= 64 /\ v < 2 ^ m.
Proof.
  intros Hv. destruct (Z.eqb_spec v 0) as [->|E]; cbv zeta; [split; [lia|reflexivity]|].
  pose proof (clz64_range v ltac:(lia)). split; [lia|]. unfold clz64.
  replace (64 - (63 - Z.log2 v)) with (Z.succ (Z.log2 v)) by lia. apply Z.log2_spec. lia.
Qed.

(* For ALL 64-bit inputs in the domain sign_impl lets through: what a successful range_proveparams returns *)
Theorem proveparams_sound min_value exp min_bits value pp :
  0 <= min_value <= value -> value <= U64MAX -> -1 <= exp <= 18 -> 0 <= min_bits <= 64 ->
  range_proveparams min_value exp min_bits value = Some pp ->
  (* the decomposition is exact, over the integers (no 64-bit wrap) *)
  pp_v pp * pp_scale pp + pp_min_value pp = value /\
  0 <= pp_v pp /\ min_value <= pp_min_value pp <= value /\
  (* ring layout *)
  1 <= pp_rings pp <= 32 /\ 0 <= pp_npub pp <= 128 /\
  length (pp_rsizes pp) = Z.to_nat (pp_rings pp) /\ length (pp_secidx pp) = Z.to_nat (pp_rings pp) /\
  (* either an exact-value proof, or a real range with 1 <= mantissa <= 64 bits covering v *)
  ((pp_mantissa pp = 0 /\ pp_v pp = 0 /\ pp_scale pp = 1 /\ pp_exp pp = 0 /\ pp_rsizes pp = [1%nat]) \/
   (1 <= pp_mantissa pp <= 64 /\ pp_v pp < 2 ^ pp_mantissa pp /\
    0 <= pp_exp pp <= 18 /\ pp_exp pp <= Z.max 0 exp /\ pp_scale pp = 10 ^ pp_exp pp /\
    pp_rings pp = (pp_mantissa pp + 1) / 2 /\ 0 <= pp_min_bits pp <= min_bits /\ pp_min_bits pp <= pp_mantissa pp)).
Proof.
  intros Hmv Hval Hexp Hmb H. unfold range_proveparams in H. unfold U64MAX in *. cbv zeta in H.
  rewrite !ite_ltb_min in H.
  set (exp1 := if min_value =? 2 ^ 64 - 1 then -1 else exp) in *.
  assert (Hexp1 : -1 <= exp1 <= 18 /\ exp1 <= Z.max (-1) exp) by (unfold exp1; destruct (min_value =? 2 ^ 64 - 1); lia).
  destruct (Z.leb_spec 0 exp1) as [Ee|Ee].
  2:{ injection H as <-; cbn. repeat split; try lia. left. repeat split; reflexivity. }
  passed H Eg. clear Eg.
  set (mb := Z.min (if min_value =? 0 then 64 else clz64 min_value) min_bits) in *.
  assert (Hmb' : 0 <= mb <= min_bits).
  { unfold mb. destruct (Z.eqb_spec min_value 0); [|pose proof (clz64_range min_value)]; lia. }
  set (exp2 := if (61 <? mb) || (INT64MAX <? value) then 0 else exp1) in *.
  assert (Hexp2 : 0 <= exp2 <= 18 /\ exp2 <= exp1) by (unfold exp2; destruct (_ || _); lia).
  rewrite (u64_small (value - min_value)) in H by lia.
  destruct (exp_loop (Z.to_nat exp2) 0 (value - min_value) _) as [e v] eqn:El.
  rewrite !ite_ltb_max in H. apply exp_loop_spec in El as [He Hv]; [|lia].
  rewrite Z2Nat.id in He by lia. rewrite Z.sub_0_r in Hv.
  pose proof (pow10_le_u64 e ltac:(lia)) as Hp10.
  assert (Hv0 : 0 <= v) by (subst v; apply Z.div_pos; lia).
  assert (Hvle : v * 10 ^ e <= value - min_value) by (subst v; rewrite Z.mul_comm; apply Z.mul_div_le; lia).
  assert (Hprod : v <= v * 10 ^ e) by (clear - Hv0 Hp10; nia).
  rewrite (u64_small (10 ^ e)), (u64_small (v * 10 ^ e)), (u64_small (value - v * 10 ^ e)) in H by lia.
  destruct (bitlen_spec v ltac:(lia)) as [Hm0 Hvm0]. set (m0 := if v =? 0 then 1 else 64 - clz64 v) in *.
  set (mant := Z.max m0 mb) in *.
  assert (Hvm : v < 2 ^ mant) by (assert (2 ^ m0 <= 2 ^ mant) by (apply Z.pow_le_mono_r; lia); lia).
  set (rings := Z.shiftr (mant + 1) 1) in *.
  assert (Hrings : rings = (mant + 1) / 2) by (unfold rings; rewrite Z.shiftr_div_pow2 by lia; reflexivity).
  injection H as <-; cbn [pp_v pp_rings pp_rsizes pp_npub pp_secidx pp_min_value pp_mantissa pp_scale pp_exp pp_min_bits].
  rewrite !ring_list_length.
  assert ((sum_nat (ring_list rings (ring_size rings mant)) <= 4 * Z.to_nat rings)%nat)
    by (apply sum_nat_ring_list_le; intros x; unfold ring_size; destruct ((x <? rings - 1) || Z.even mant); lia).
  clear Hv Hp10 Hvm0. repeat split; try lia.
Qed.

(* range_proveparams fails exactly for the documented-invalid combination *)
Theorem proveparams_fails_iff min_value exp min_bits value :
  range_proveparams min_value exp min_bits value = None <->
  (min_value <> U64MAX /\ 0 <= exp /\
   ((min_value <> 0 /\ INT64MAX < value) \/ (value <> 0 /\ INT64MAX <= min_value))).
Proof.
  unfold range_proveparams.
  destruct (Z.eqb_spec min_value U64MAX) as [E1|E1]; [cbn; split; [discriminate|tauto]|].
  destruct (Z.leb_spec 0 exp) as [E2|E2]; [|split; [discriminate|lia]].
  match goal with |- (if ?c then _ else _) = _ <-> _ =>
    assert (G : c = true <-> (min_value <> 0 /\ INT64MAX < value) \/ (value <> 0 /\ INT64MAX <= min_value))
      by (rewrite orb_true_iff, !andb_true_iff, !negb_true_iff, !Z.eqb_neq, Z.ltb_lt, Z.leb_le; reflexivity);
    destruct c
  end.
  - split; [intros _; repeat split; [exact E1|exact E2|apply G; reflexivity]|reflexivity].
  - split; [destruct (exp_loop _ _ _ _); discriminate|intros (_ & _ & D%G); discriminate].
Qed.

Theorem max_size_bound max_value min_bits :
  0 <= max_value < 2 ^ 64 -> min_bits <= 64 -> 0 <= rangeproof_max_size max_value min_bits <= 5134.
Proof.
  intros Hv Hb. unfold rangeproof_max_size. rewrite ite_ltb_max.
  assert (1 <= (if 0 <? max_value then 64 - clz64 max_value else 1) <= 64); [|lia].
  destruct (Z.ltb_spec 0 max_value); [pose proof (clz64_range max_value)|]; lia.
Qed.

Section Sign.
Variable P : Params.
Notation n := (cn P).

Definition sign_gate (plen min_value exp min_bits value : Z) : bool :=
  (plen <? 65) || (value <? min_value) || (64 <? min_bits) || (min_bits <? 0) || (exp <? -1) || (18 <? exp).

(* the checks sign_impl has passed when it returns a proof *)
Lemma sign_ok_inv plen min_value commit blind nonce exp min_bits value message extra genp proof :
  rangeproof_sign_impl P plen min_value commit blind nonce exp min_bits value message extra genp = ROk proof ->
  sign_gate plen min_value exp min_bits value = false /\ be_val blind < n /\
  exists pp, range_proveparams min_value exp min_bits value = Some pp /\
    Z.of_nat (length (match message with Some m => m | None => [] end)) <= Z.max 0 (128 * (pp_rings pp - 1)) /\
    Z.of_nat (length (header_bytes pp)) + 32 * (pp_npub pp + pp_rings pp - 1) + 32 + Z.shiftr (pp_rings pp + 6) 3 <= plen.
Proof.
  unfold rangeproof_sign_impl, sign_gate.
  (* the unary 4096 of the message buffer would be traversed by every step below *)
  generalize 4096%nat; intros bufsz.
  destruct (_ || (18 <? exp)); [discriminate|].
  destruct (range_proveparams min_value exp min_bits value) as [pp|]; [|discriminate]. cbv zeta.
  destruct (_ && _) eqn:Em; [discriminate|]. destruct (plen - _ <? _) eqn:Er; [discriminate|]. apply Z.ltb_ge in Er.
  destruct (Z.leb_spec n (be_val blind)) as [Hov|Hlt];
    [rewrite (sc_of_b32_ov P _ Hov)|rewrite (sc_of_b32_ok P _ Hlt)]; cbn [orb].
  - destruct (genrand _ _ _ _ _ _ _) as [[[[? ?] ?] []]|]; discriminate.
  - intros _. split; [reflexivity|]. split; [exact Hlt|]. exists pp. split; [reflexivity|]. split; [|lia].
    apply andb_false_iff in Em as [Em%Z.ltb_ge|Em%Z.ltb_ge]; (eapply Z.le_trans; [exact Em|]);
      [apply Z.le_max_l|apply Z.le_max_r].
Qed.

(* outside the documented domain sign_impl returns 0 before doing anything *)
Theorem sign_param_gate plen min_value commit blind nonce exp min_bits value message extra genp :
  plen < 65 \/ value < min_value \/ 64 < min_bits \/ min_bits < 0 \/ exp < -1 \/ 18 < exp ->
  rangeproof_sign_impl P plen min_value commit blind nonce exp min_bits value message extra genp = RFail.
Proof.
  intros H. unfold rangeproof_sign_impl. fold (sign_gate plen min_value exp min_bits value).
  replace (sign_gate plen min_value exp min_bits value) with true; [reflexivity|].
  symmetry. unfold sign_gate. repeat rewrite orb_true_iff. repeat rewrite Z.ltb_lt. tauto.
Qed.

Theorem sign_rejects_blind_overflow plen min_value commit blind nonce exp min_bits value message extra genp proof :
  n <= be_val blind ->
  rangeproof_sign_impl P plen min_value commit blind nonce exp min_bits value message extra genp <> ROk proof.
Proof. intros Hov (_ & Hlt & _)%sign_ok_inv. lia. Qed.
End Sign.

Arguments ho_len {proof h}. Arguments ho_bit7 {proof h}. Arguments ho_exp {proof h}. Arguments ho_exp18 {proof h}.
Arguments ho_mant {proof h}. Arguments ho_mant64 {proof h}.
Arguments lo_spare {P proof h}. Arguments lo_digits {P proof h}. Arguments lo_scalars {P proof h}. Arguments lo_len {P proof h}.
