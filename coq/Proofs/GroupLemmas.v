(* Module laws of scalar multiplication derived from the group premises [MathFacts]. *)
From Coq Require Import ZArith List Lia Znumtheory.
Require Import Spec.Params Spec.Field Spec.Curve Proofs.MathFacts.
Local Open Scope Z_scope.

Section GroupLemmas.
Variable P : Params.
Hypothesis MF : MathFacts P.
Notation padd := (padd P).
Notation pneg := (pneg P).
Notation pdbl := (pdbl P).
Notation pmul := (pmul P).
Notation G := (G P).
Notation oc := (oc P).
Let n := cn P.

Lemma oc_None : oc None. Proof. reflexivity. Qed.
Lemma padd_None_l Q : padd None Q = Q. Proof. reflexivity. Qed.
Lemma padd_None_r Q : padd Q None = Q. Proof. destruct Q as [[x y]|]; reflexivity. Qed.
Lemma pdbl_padd Q : pdbl Q = padd Q Q.
Proof. destruct Q as [[x y]|]; [|reflexivity]. unfold Curve.padd. rewrite !Z.eqb_refl. reflexivity. Qed.

Lemma oc_add A B : oc A -> oc B -> oc (padd A B). Proof. apply (mf_closed P MF). Qed.
Lemma oc_neg A : oc A -> oc (pneg A). Proof. apply (mf_neg_oc P MF). Qed.
Lemma oc_G : oc G. Proof. apply (mf_G P MF). Qed.
Lemma padd_assoc A B C : oc A -> oc B -> oc C -> padd (padd A B) C = padd A (padd B C).
Proof. apply (mf_assoc P MF). Qed.
Lemma padd_comm A B : oc A -> oc B -> padd A B = padd B A. Proof. apply (mf_comm P MF). Qed.
Lemma padd_neg A : oc A -> padd A (pneg A) = None. Proof. apply (mf_neg P MF). Qed.
Lemma padd_neg_l A : oc A -> padd (pneg A) A = None.
Proof. intros HA. rewrite padd_comm by auto using oc_neg. apply padd_neg, HA. Qed.

Lemma inv_unique A B : oc A -> oc B -> padd A B = None -> B = pneg A.
Proof.
  intros HA HB H.
  assert (E : padd (pneg A) (padd A B) = pneg A) by (rewrite H; apply padd_None_r).
  rewrite <- padd_assoc in E by auto using oc_neg.
  rewrite (padd_comm (pneg A) A) in E by auto using oc_neg.
  rewrite padd_neg in E by auto. exact E.
Qed.
Lemma pneg_add A B : oc A -> oc B -> pneg (padd A B) = padd (pneg A) (pneg B).
Proof.
  intros HA HB. symmetry. apply inv_unique; auto using oc_add, oc_neg.
  rewrite (padd_comm (pneg A) (pneg B)) by auto using oc_neg.
  rewrite padd_assoc by auto using oc_add, oc_neg.
  rewrite <- (padd_assoc B (pneg B) (pneg A)) by auto using oc_neg.
  rewrite padd_neg by auto. rewrite padd_None_l. apply padd_neg; auto.
Qed.
Lemma pneg_None : pneg None = None. Proof. reflexivity. Qed.
Lemma pneg_involutive A : oc A -> pneg (pneg A) = A.
Proof.
  intros HA. symmetry. apply inv_unique; auto using oc_neg.
  apply padd_neg_l; auto.
Qed.

Lemma fold_padd_oc l : forall A, oc A -> Forall oc l -> oc (fold_left padd l A).
Proof. induction l as [|B l IH]; intros A HA Hl; simpl; auto. inversion Hl; subst. auto using oc_add. Qed.
Lemma psum_oc l : Forall oc l -> oc (psum P l).
Proof. intros. apply fold_padd_oc; auto using oc_None. Qed.
Lemma fold_padd_sum l : forall A, oc A -> Forall oc l -> fold_left padd l A = padd A (psum P l).
Proof.
  unfold psum. induction l as [|B l IH]; intros A HA Hl; simpl; [symmetry; apply padd_None_r|].
  inversion Hl; subst. rewrite IH, (IH B) by auto using oc_add.
  apply padd_assoc; auto using fold_padd_oc, oc_None.
Qed.

Fixpoint nmul (k : nat) (Q : point) : point :=
  match k with O => None | S k' => padd Q (nmul k' Q) end.
Lemma oc_nmul k Q : oc Q -> oc (nmul k Q).
Proof. intros HQ. induction k; simpl; auto using oc_None, oc_add. Qed.
Lemma nmul_add a b Q : oc Q -> nmul (a + b) Q = padd (nmul a Q) (nmul b Q).
Proof.
  intros HQ. induction a; simpl; [reflexivity|].
  rewrite IHa. rewrite padd_assoc; auto using oc_nmul.
Qed.
Lemma nmul_None k : nmul k None = None. Proof. induction k; simpl; auto. Qed.
Lemma nmul_mul a b Q : oc Q -> nmul (a * b) Q = nmul a (nmul b Q).
Proof.
  intros HQ. induction a; simpl; [reflexivity|].
  rewrite nmul_add by auto. rewrite IHa. reflexivity.
Qed.
Lemma nmul_neg k Q : oc Q -> nmul k (pneg Q) = pneg (nmul k Q).
Proof.
  intros HQ. induction k; simpl; [reflexivity|].
  rewrite IHk. rewrite pneg_add; auto using oc_nmul.
Qed.

Lemma pmul_pos_nmul k Q : oc Q -> pmul_pos P k Q = nmul (Pos.to_nat k) Q.
Proof.
  intros HQ. induction k; simpl pmul_pos.
  - rewrite IHk, pdbl_padd, <- nmul_add by auto.
    replace (Pos.to_nat k~1) with (S (Pos.to_nat k + Pos.to_nat k)) by lia. reflexivity.
  - rewrite IHk, pdbl_padd, <- nmul_add by auto.
    replace (Pos.to_nat k~0) with (Pos.to_nat k + Pos.to_nat k)%nat by lia. reflexivity.
  - simpl. rewrite padd_None_r. reflexivity.
Qed.
Lemma pmul_nmul k Q : oc Q -> 0 <= k -> pmul k Q = nmul (Z.to_nat k) Q.
Proof.
  intros HQ Hk. destruct k; try lia; simpl; [reflexivity|]. apply pmul_pos_nmul; auto.
Qed.
Lemma oc_pmul k Q : oc Q -> oc (pmul k Q).
Proof.
  intros HQ. destruct k; simpl; [reflexivity| |]; rewrite pmul_pos_nmul; auto using oc_nmul, oc_neg.
Qed.
Lemma pmul_add a b Q : oc Q -> 0 <= a -> 0 <= b -> pmul (a + b) Q = padd (pmul a Q) (pmul b Q).
Proof.
  intros HQ Ha Hb. rewrite !pmul_nmul by (auto; lia). rewrite Z2Nat.inj_add by lia. apply nmul_add; auto.
Qed.
Lemma pmul_mul a b Q : oc Q -> 0 <= a -> 0 <= b -> pmul (a * b) Q = pmul a (pmul b Q).
Proof.
  intros HQ Ha Hb.
  rewrite (pmul_nmul (a * b)) by (auto; nia).
  rewrite (pmul_nmul b Q) by auto.
  rewrite (pmul_nmul a) by auto using oc_nmul.
  rewrite Z2Nat.inj_mul by lia. apply nmul_mul; auto.
Qed.
Lemma pmul_0 Q : pmul 0 Q = None. Proof. reflexivity. Qed.
Lemma pmul_1 Q : pmul 1 Q = Q. Proof. reflexivity. Qed.
Lemma pmul_None k : pmul k None = None.
Proof. destruct k; simpl; auto; rewrite pmul_pos_nmul by reflexivity; apply nmul_None. Qed.
Lemma pmul_pneg k Q : oc Q -> 0 <= k -> pmul k (pneg Q) = pneg (pmul k Q).
Proof. intros HQ Hk. rewrite !pmul_nmul by auto using oc_neg. apply nmul_neg; auto. Qed.

Lemma n_gt_1 : 1 < n.
Proof. pose proof (prime_ge_2 _ (mf_n_prime P MF)). unfold n. lia. Qed.
Lemma n_pos : 0 < n.
Proof. pose proof n_gt_1. lia. Qed.
Lemma p_pos : 0 < cp P.
Proof. pose proof (prime_ge_2 _ (mf_p_prime P MF)). lia. Qed.
Lemma pmul_n_Q Q : oc Q -> pmul n Q = None. Proof. apply (mf_cofactor P MF). Qed.
Lemma pmul_mod_n_Q k Q : oc Q -> 0 <= k -> pmul (k mod n) Q = pmul k Q.
Proof.
  intros HQ Hk. pose proof n_pos as Hn.
  rewrite (Z.div_mod k n) at 2 by lia.
  assert (0 <= k / n) by (apply Z.div_pos; lia).
  assert (0 <= k mod n) by (apply Z.mod_pos_bound; lia).
  rewrite pmul_add by (auto; nia).
  rewrite (Z.mul_comm n), pmul_mul by (auto; lia).
  rewrite pmul_n_Q, pmul_None by auto. reflexivity.
Qed.
Lemma pmul_mod_n k : 0 <= k -> pmul (k mod n) G = pmul k G.
Proof. intros. apply pmul_mod_n_Q; auto using oc_G. Qed.
Lemma pmul_eqm_Q a b Q : oc Q -> 0 <= a -> 0 <= b -> eqm n a b -> pmul a Q = pmul b Q.
Proof. intros HQ Ha Hb H. rewrite <- (pmul_mod_n_Q a), <- (pmul_mod_n_Q b), H by assumption. reflexivity. Qed.
Lemma pmul_eqm a b : 0 <= a -> 0 <= b -> eqm n a b -> pmul a G = pmul b G.
Proof. apply pmul_eqm_Q, oc_G. Qed.
Lemma pmul_madd_Q a b Q : oc Q -> 0 <= a -> 0 <= b -> pmul (madd n a b) Q = padd (pmul a Q) (pmul b Q).
Proof. intros. unfold madd. rewrite pmul_mod_n_Q by (auto; lia). apply pmul_add; auto. Qed.
Lemma pmul_mmul_Q a b Q : oc Q -> 0 <= a -> 0 <= b -> pmul (mmul n a b) Q = pmul a (pmul b Q).
Proof. intros. unfold mmul. rewrite pmul_mod_n_Q by (auto; nia). apply pmul_mul; auto. Qed.
Lemma pmul_mneg_Q a Q : oc Q -> 0 <= a < n -> pmul (mneg n a) Q = pneg (pmul a Q).
Proof.
  intros HQ Ha. unfold mneg.
  assert (E : padd (pmul a Q) (pmul ((- a) mod n) Q) = None).
  { rewrite <- pmul_add by (auto; try lia; apply Z.mod_pos_bound; lia).
    rewrite <- pmul_mod_n_Q by (auto; pose proof (Z.mod_pos_bound (-a) n); lia).
    rewrite Zplus_mod_idemp_r. replace (a + - a) with 0 by lia. rewrite Z.mod_0_l by lia. reflexivity. }
  apply inv_unique in E; auto using oc_pmul.
Qed.
Lemma pmul_madd a b : 0 <= a -> 0 <= b -> pmul (madd n a b) G = padd (pmul a G) (pmul b G).
Proof. intros. apply pmul_madd_Q; auto using oc_G. Qed.
Lemma pmul_mmul a b : 0 <= a -> 0 <= b -> pmul (mmul n a b) G = pmul a (pmul b G).
Proof. intros. apply pmul_mmul_Q; auto using oc_G. Qed.
Lemma pmul_mneg a : 0 <= a < n -> pmul (mneg n a) G = pneg (pmul a G).
Proof. intros. apply pmul_mneg_Q; auto using oc_G. Qed.

(* n is prime, so every point other than infinity has exact order n *)
Lemma pmul_nonzero_Q k Q : oc Q -> Q <> None -> 0 < k < n -> pmul k Q <> None.
Proof.
  intros HQ HQn Hk H. pose proof n_pos as Hn.
  assert (R : rel_prime k n) by (apply rel_prime_le_prime; [apply (mf_n_prime P MF)|lia]).
  apply rel_prime_bezout in R. destruct R as [u v E].
  assert (E1 : eqm n ((u mod n) * k) 1).
  { unfold eqm. rewrite Z.mul_mod_idemp_l by lia. rewrite <- E. symmetry. apply Z.mod_add. lia. }
  assert (Hu : 0 <= u mod n < n) by (apply Z.mod_pos_bound; lia).
  apply HQn. rewrite <- (pmul_1 Q), <- (pmul_eqm_Q (u mod n * k) 1 Q) by (auto; nia).
  rewrite pmul_mul, H by (auto; lia). apply pmul_None.
Qed.
Lemma pmul_G_nonzero k : 0 < k < n -> pmul k G <> None.
Proof. apply pmul_nonzero_Q; apply (mf_G P MF). Qed.
End GroupLemmas.
