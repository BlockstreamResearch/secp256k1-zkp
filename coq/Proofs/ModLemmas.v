(* Congruence modulo m on Z: the standard library's [eqm] as a rewriting relation, a tactic for
   congruences between ring expressions, the operations of Spec/Field.v seen through it, and mpow
   evaluated by folding when the modulus is 2^k - c. *)
From Coq Require Import ZArith Znumtheory Lia Morphisms Setoid.
Require Import Spec.Field.
Local Open Scope Z_scope.

#[export] Instance eqm_equiv m : Equivalence (eqm m) := eqm_setoid m.
#[export] Instance add_eqm m : Proper (eqm m ==> eqm m ==> eqm m) Z.add := Zplus_eqm m.
#[export] Instance sub_eqm m : Proper (eqm m ==> eqm m ==> eqm m) Z.sub := Zminus_eqm m.
#[export] Instance mul_eqm m : Proper (eqm m ==> eqm m ==> eqm m) Z.mul := Zmult_eqm m.
#[export] Instance opp_eqm m : Proper (eqm m ==> eqm m) Z.opp := Zopp_eqm m.

Lemma eqm_mod m a : eqm m (a mod m) a. Proof. apply Zmod_eqm. Qed.
Lemma eq_eqm m a b : a = b -> eqm m a b. Proof. intros ->. reflexivity. Qed.
Lemma eqm_m0 m : eqm m m 0. Proof. unfold eqm. rewrite Z_mod_same_full, Zmod_0_l. reflexivity. Qed.
Lemma eqm_small m a b : 0 <= a < m -> 0 <= b < m -> eqm m a b -> a = b.
Proof. unfold eqm. intros Ha Hb. rewrite !Z.mod_small by assumption. auto. Qed.

(* [eqm_strip m] proves [eqm m X ?Y] where ?Y is X with every inner "mod m" removed and m replaced by 0.
   [eqm_solve m] closes [X mod m = Y mod m] or [eqm m X Y] for X, Y built from + - * opp, "mod m", m and the
   operations of Spec/Field.v at modulus m: both sides are stripped and the rest is left to [ring]. *)
Ltac eqm_strip m :=
  lazymatch goal with
  | |- eqm m (?a mod m) _ => eapply eqm_trans; [apply Zmod_eqm | eqm_strip m]
  | |- eqm m m _ => apply eqm_m0
  | |- eqm m (?a + ?b) _ => eapply (Zplus_eqm m); [eqm_strip m | eqm_strip m]
  | |- eqm m (?a - ?b) _ => eapply (Zminus_eqm m); [eqm_strip m | eqm_strip m]
  | |- eqm m (?a * ?b) _ => eapply (Zmult_eqm m); [eqm_strip m | eqm_strip m]
  | |- eqm m (- ?a) _ => eapply (Zopp_eqm m); eqm_strip m
  | |- eqm m _ _ => apply eqm_refl
  end.
Tactic Notation "eqm_solve" constr(m) :=
  unfold madd, msub, mmul, mneg;
  lazymatch goal with |- ?X mod m = ?Y mod m => change (eqm m X Y) | |- eqm m _ _ => idtac end;
  eapply eqm_trans; [eqm_strip m |];
  apply eqm_sym; eapply eqm_trans; [eqm_strip m |];
  apply eq_eqm; ring.

Section Field.
Variable m : Z.

Lemma madd_eqm a b : eqm m (madd m a b) (a + b). Proof. apply eqm_mod. Qed.
Lemma msub_eqm a b : eqm m (msub m a b) (a - b). Proof. apply eqm_mod. Qed.
Lemma mmul_eqm a b : eqm m (mmul m a b) (a * b). Proof. apply eqm_mod. Qed.
Lemma mneg_eqm a : eqm m (mneg m a) (- a). Proof. apply eqm_mod. Qed.

Lemma mneg_involutive a : 0 <= a < m -> mneg m (mneg m a) = a.
Proof. intros Ha. apply (eqm_small m); [apply Z.mod_pos_bound; lia|exact Ha|eqm_solve m]. Qed.
Lemma sq_neg_mod y : (mneg m y * mneg m y) mod m = (y * y) mod m.
Proof. eqm_solve m. Qed.

Hypothesis Hm : 0 < m.

Lemma madd_range a b : 0 <= madd m a b < m. Proof. apply Z.mod_pos_bound, Hm. Qed.
Lemma msub_range a b : 0 <= msub m a b < m. Proof. apply Z.mod_pos_bound, Hm. Qed.
Lemma mmul_range a b : 0 <= mmul m a b < m. Proof. apply Z.mod_pos_bound, Hm. Qed.
Lemma mneg_range a : 0 <= mneg m a < m. Proof. apply Z.mod_pos_bound, Hm. Qed.
Lemma mpow_range a e : 0 <= mpow m a e < m.
Proof. destruct e as [|e|e]; simpl; [| destruct e; simpl |lia]; apply Z.mod_pos_bound, Hm. Qed.
Lemma minv_range a : 0 <= minv m a < m. Proof. apply mpow_range. Qed.

Lemma mneg_small a : 0 < a < m -> mneg m a = m - a.
Proof. intros Ha. apply (eqm_small m); [apply mneg_range|lia|eqm_solve m]. Qed.
Lemma mneg_odd a : Z.odd m = true -> 0 < a < m -> Z.odd (mneg m a) = negb (Z.odd a).
Proof. intros Ho Ha. rewrite mneg_small, Z.odd_sub, Ho by assumption. destruct (Z.odd a); reflexivity. Qed.
Lemma mneg_0 : mneg m 0 = 0. Proof. apply Z.mod_0_l. lia. Qed.
End Field.

Lemma sq_parity_unique p y y' : prime p -> Z.odd p = true -> 0 <= y < p -> 0 <= y' < p ->
  (y * y) mod p = (y' * y') mod p -> Z.odd y = Z.odd y' -> y = y'.
Proof.
  intros Hp Ho Hy Hy' Hsq Hpar. pose proof (prime_ge_2 _ Hp).
  assert (Hd : (p | (y - y') * (y + y'))).
  { apply Z.mod_divide; [lia|]. replace ((y - y') * (y + y')) with (y * y - y' * y') by ring.
    rewrite Zminus_mod, Hsq, Z.sub_diag. apply Zmod_0_l. }
  clear Hsq. apply (prime_mult _ Hp) in Hd. destruct Hd as [[k Hk] | [k Hk]].
  - assert (k = 0) by nia. lia.
  - assert (k = 0 \/ k = 1) as [-> | ->] by nia; [lia|].
    exfalso. replace p with (y + y') in Ho by lia. rewrite Z.odd_add, Hpar in Ho. destruct (Z.odd y'); discriminate.
Qed.

Lemma mpow_base m a b e : a mod m = b mod m -> mpow m a e = mpow m b e.
Proof.
  intros H. destruct e as [|e|e]; [reflexivity| |reflexivity]. cbn [mpow].
  induction e as [e IH|e IH|]; cbn [mpow_pos]; cbv zeta; rewrite ?IH; [|reflexivity|exact H].
  rewrite <- Zmult_mod_idemp_r, H, Zmult_mod_idemp_r. reflexivity.
Qed.
Lemma mpow_mul m a b e : mpow m (a * b) e = (mpow m a e * mpow m b e) mod m.
Proof.
  destruct e as [|e|e]; cbn [mpow]; [eqm_solve m| |reflexivity].
  induction e as [e IH|e IH|]; cbn [mpow_pos]; cbv zeta; rewrite ?IH; eqm_solve m.
Qed.

(* Reduction modulo m = 2^k - c by folding the high part down twice (2^k = c mod m), and exponentiation with it: the same
   function as [mpow], several times cheaper for the kernel's evaluators, which have to run it for a 256-bit exponent. *)
Section Fold.
Variables k c : Z.
Hypothesis Hk : 0 <= k.
Hypothesis Hc : 0 <= c.
Hypothesis Hcc : (c + 1) * (c + 1) <= 2^k.
Let m := 2^k - c.

Definition fold1 (x : Z) : Z := Z.land x (Z.ones k) + c * Z.shiftr x k.
Definition fold_mod (x : Z) : Z := let y := fold1 (fold1 x) in if y <? m then y else y - m.

Lemma fold1_spec x : 0 <= x -> fold1 x = x mod 2^k + c * (x / 2^k) /\ eqm m (fold1 x) x.
Proof.
  intros Hx. unfold fold1. rewrite Z.land_ones, Z.shiftr_div_pow2 by exact Hk. split; [reflexivity|].
  unfold eqm. rewrite (Z.div_mod x (2^k)) at 3 by (apply Z.pow_nonzero; lia).
  replace (2^k * (x / 2^k) + x mod 2^k) with (x mod 2^k + c * (x / 2^k) + (x / 2^k) * m) by (unfold m; ring).
  symmetry. apply Z.mod_add. unfold m. nia.
Qed.

Lemma fold_mod_spec x : 0 <= x < 2^k * 2^k -> fold_mod x = x mod m.
Proof.
  intros Hx. assert (Hp : 0 < 2^k) by (apply Z.pow_pos_nonneg; lia). assert (Hm : 0 < m) by (unfold m; nia).
  destruct (fold1_spec x ltac:(lia)) as [E1 C1].
  assert (B1 : 0 <= fold1 x < (c + 1) * 2^k).
  { rewrite E1. pose proof (Z.mod_pos_bound x (2^k) Hp). assert (0 <= x / 2^k < 2^k) by (split; [apply Z.div_pos|apply Z.div_lt_upper_bound]; lia). nia. }
  destruct (fold1_spec (fold1 x) ltac:(lia)) as [E2 C2].
  assert (B2 : 0 <= fold1 (fold1 x) < 2 * m).
  { rewrite E2. pose proof (Z.mod_pos_bound (fold1 x) (2^k) Hp).
    assert (0 <= fold1 x / 2^k <= c) by (split; [apply Z.div_pos; lia|apply Z.lt_succ_r, Z.div_lt_upper_bound; lia]). unfold m. nia. }
  unfold fold_mod. cbv zeta. rewrite <- C1, <- C2. destruct (Z.ltb_spec (fold1 (fold1 x)) m).
  - symmetry. apply Z.mod_small. lia.
  - apply (Z.mod_unique_pos _ m 1); lia.
Qed.

Fixpoint mpow_pos_fold (a : Z) (e : positive) : Z :=
  match e with
  | xH => a
  | xO e' => let r := mpow_pos_fold a e' in fold_mod (r * r)
  | xI e' => let r := mpow_pos_fold a e' in fold_mod (fold_mod (r * r) * a)
  end.

Lemma mpow_pos_fold_spec a e : 0 <= a < m -> mpow_pos_fold a e = mpow_pos m a e.
Proof.
  intros Ha. assert (Hp : 0 < 2^k) by (apply Z.pow_pos_nonneg; lia). assert (Hm : 0 < m <= 2^k) by (unfold m; nia).
  assert (L : forall x y, 0 <= x < m -> 0 <= y < m -> fold_mod (x * y) = (x * y) mod m) by (intros; apply fold_mod_spec; nia).
  assert (R : forall e, 0 <= mpow_pos m a e < m) by (intros e'; exact (mpow_range m (proj1 Hm) a (Zpos e'))).
  induction e as [e IH|e IH|]; cbn [mpow_pos_fold mpow_pos]; cbv zeta; rewrite ?IH.
  - rewrite (L _ _ (R e) (R e)), L; auto. apply Z.mod_pos_bound; lia.
  - apply L; auto.
  - symmetry. apply Z.mod_small, Ha.
Qed.

Definition mpow_fold (a e : Z) : Z := match e with Zpos e' => mpow_pos_fold a e' | _ => mpow m a e end.
Lemma mpow_fold_spec a e : 0 <= a < m -> mpow m a e = mpow_fold a e.
Proof. intros Ha. destruct e; cbn [mpow_fold mpow]; auto. symmetry. apply mpow_pos_fold_spec, Ha. Qed.
End Fold.
