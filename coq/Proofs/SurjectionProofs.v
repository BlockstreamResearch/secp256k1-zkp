(* Lemmas about Model/Surjection.v (property C11): the encoding accepted by the parser, what verification
   checks, the invariant of the subset-selection loops.  No premise about the curve is needed here;
   generate => verify is in Proofs/SurjectionComplete.v. *)
From Coq Require Import ZArith List Bool Lia.
Require Import Spec.Params Spec.Field Spec.Curve Spec.Bytes Spec.Sha256 Model.Base Model.Borromean Model.Surjection.
Require Import Proofs.BytesLemmas.
Import ListNotations.
Local Open Scope Z_scope.

Lemma b2z_range : forall b, 0 <= b2z b <= 1.
Proof. destruct b; simpl; lia. Qed.

Lemma popcount8_range : forall b, 0 <= popcount8 b <= 8.
Proof.
  intros b. unfold popcount8.
  pose proof (b2z_range (Z.testbit b 0)). pose proof (b2z_range (Z.testbit b 1)).
  pose proof (b2z_range (Z.testbit b 2)). pose proof (b2z_range (Z.testbit b 3)).
  pose proof (b2z_range (Z.testbit b 4)). pose proof (b2z_range (Z.testbit b 5)).
  pose proof (b2z_range (Z.testbit b 6)). pose proof (b2z_range (Z.testbit b 7)). lia.
Qed.

Lemma count_bits_nonneg : forall l, 0 <= count_bits l.
Proof. induction l; simpl; [lia | pose proof (popcount8_range a); lia]. Qed.

Lemma count_bits_zeros : forall k, count_bits (zeros k) = 0.
Proof. induction k; simpl; auto. Qed.

(* bit j of the padding mask (unsigned char)(~0U << k) *)
Lemma padding_mask_bit : forall k j, 0 <= k < 8 -> 0 <= j ->
  Z.testbit (Z.land (Z.shiftl 255 k) 255) j = (k <=? j) && (j <? 8).
Proof.
  intros k j Hk Hj. rewrite Z.land_spec, (Z.shiftl_spec 255 k j Hj). change 255 with (Z.ones 8). rewrite !Z.testbit_ones by lia.
  destruct (Z.leb_spec k j); destruct (Z.ltb_spec j 8); destruct (Z.leb_spec 0 (j - k)); destruct (Z.ltb_spec (j - k) 8);
      destruct (Z.leb_spec 0 j); simpl; try reflexivity; lia.
Qed.

Lemma land_mask_zero_iff : forall b k, 0 <= k < 8 ->
  (Z.land b (Z.land (Z.shiftl 255 k) 255) = 0 <-> forall j, k <= j < 8 -> Z.testbit b j = false).
Proof.
  intros b k Hk. split.
  - intros H j Hj.
    assert (E : Z.testbit (Z.land b (Z.land (Z.shiftl 255 k) 255)) j = false) by (rewrite H; apply Z.bits_0).
    rewrite Z.land_spec, padding_mask_bit in E by lia.
    destruct (Z.leb_spec k j); destruct (Z.ltb_spec j 8); try lia. simpl in E. rewrite andb_true_r in E. exact E.
  - intros H. apply Z.bits_inj'. intros j Hj. rewrite Z.bits_0, Z.land_spec, padding_mask_bit by lia.
    destruct (Z.leb_spec k j); destruct (Z.ltb_spec j 8); simpl; try apply andb_false_r.
    rewrite H by lia. reflexivity.
Qed.

Lemma bitmap_len_nonneg : forall n, 0 <= n -> 0 <= bitmap_len n.
Proof. intros. apply Z.div_pos; lia. Qed.
Lemma bitmap_len_pos : forall n, 0 <= n -> n mod 8 <> 0 -> 1 <= bitmap_len n.
Proof.
  intros n H H0. assert (n mod 8 <= n) by (apply Z.mod_le; lia). assert (0 <= n mod 8 < 8) by (apply Z.mod_pos_bound; lia).
  apply Z.div_le_lower_bound; lia.
Qed.

Definition n_field (input : bytes) : Z := nth 1 input 0 * 256 + nth 0 input 0.
Definition bitmap_of (input : bytes) : bytes := firstn (Z.to_nat (bitmap_len (n_field input))) (skipn 2 input).

(* the canonical encodings: at most 256 inputs, exact length 2 + ceil(n/8) + 32*(1 + popcount), and no
   bit set in the bitmap at a position >= n *)
Definition canonical (input : bytes) : Prop :=
  let len := Z.of_nat (length input) in
  let n := n_field input in
  2 <= len /\ n <= 256 /\
  len = 2 + bitmap_len n + 32 * (1 + count_bits (bitmap_of input)) /\
  (forall j, n mod 8 <> 0 -> n mod 8 <= j < 8 -> Z.testbit (nth (Z.to_nat (2 + bitmap_len n - 1)) input 0) j = false).

Lemma parse_Some_iff : forall input pr,
  parse input = Some pr <->
  canonical input /\
  pr = mkProof (n_field input) (bitmap_of input) (skipn (Z.to_nat (2 + bitmap_len (n_field input))) input).
Proof.
  intros input pr. unfold parse, canonical, bitmap_of, n_field, padding_mask, SJ_MAX_N_INPUTS.
  set (len := Z.of_nat (length input)).
  set (n := nth 1 input 0 * 256 + nth 0 input 0).
  set (bl := bitmap_len n).
  set (bm := firstn (Z.to_nat bl) (skipn 2 input)).
  set (b := nth (Z.to_nat (2 + bl - 1)) input 0).
  pose proof (count_bits_nonneg bm) as Hcb.
  assert (Hmod : 0 <= n mod 8 < 8) by (apply Z.mod_pos_bound; lia).
  assert (Hpad : negb (n mod 8 =? 0) && negb (Z.land b (Z.land (Z.shiftl 255 (n mod 8)) 255) =? 0) = false <->
                 (forall j, n mod 8 <> 0 -> n mod 8 <= j < 8 -> Z.testbit b j = false)).
  { destruct (Z.eqb_spec (n mod 8) 0) as [Hz | Hnz]; cbn [negb andb]; [split; [intros _ j Hc; contradiction | reflexivity] |].
    rewrite negb_false_iff, Z.eqb_eq, (land_mask_zero_iff _ _ Hmod).
    split; [intros H j _; apply H | intros H j; apply H; exact Hnz]. }
  destruct (Z.ltb_spec len 2). { split; [discriminate | intros ((H1 & _) & _); lia]. }
  destruct (Z.ltb_spec 256 n). { split; [discriminate | intros ((_ & H2 & _) & _); lia]. }
  destruct (Z.ltb_spec len (2 + bl)). { split; [discriminate | intros ((_ & _ & H3 & _) & _); lia]. }
  destruct (negb (n mod 8 =? 0) && negb (Z.land b (Z.land (Z.shiftl 255 (n mod 8)) 255) =? 0)).
  { split; [discriminate | intros ((_ & _ & _ & H4) & _)]. apply Hpad in H4. discriminate. }
  destruct (Z.eqb_spec len (2 + bl + 32 * (1 + count_bits bm))); cbn [negb].
  - split; [intros E; inversion E | intros (_ & ->); reflexivity].
    repeat split; try lia. apply Hpad. reflexivity.
  - split; [discriminate | intros ((_ & _ & H3 & _) & _); lia].
Qed.

Lemma two_bytes : forall b0 b1, 0 <= b0 < 256 -> 0 <= b1 < 256 ->
  (b1 * 256 + b0) mod 256 = b0 /\ ((b1 * 256 + b0) / 256) mod 256 = b1.
Proof.
  intros. split.
  - rewrite Z.add_comm, Z.mod_add by lia. apply Z.mod_small; lia.
  - rewrite Z.add_comm, Z.div_add by lia. rewrite (Z.div_small b0) by lia. simpl. apply Z.mod_small; lia.
Qed.

Lemma serialize_canonical : forall input, bytes_ok input = true -> canonical input ->
  let pr := mkProof (n_field input) (bitmap_of input) (skipn (Z.to_nat (2 + bitmap_len (n_field input))) input) in
  serialize_bytes pr = input /\ serialized_size pr = Z.of_nat (length input).
Proof.
  intros input Hok (H2 & _ & Hlen & _) pr.
  destruct input as [| b0 [| b1 rest]]; [simpl in H2; lia | simpl in H2; lia |].
  assert (R0 : 0 <= b0 < 256 /\ 0 <= b1 < 256).
  { unfold bytes_ok in Hok. simpl in Hok. rewrite !andb_true_iff in Hok. lia. }
  destruct (two_bytes b0 b1 (proj1 R0) (proj2 R0)) as [E0 E1].
  set (n := n_field (b0 :: b1 :: rest)) in *. set (bl := bitmap_len n) in *.
  assert (En : n = b1 * 256 + b0) by reflexivity.
  assert (Hbl : 0 <= bl) by (apply bitmap_len_nonneg; lia).
  assert (Ebm : bitmap_of (b0 :: b1 :: rest) = firstn (Z.to_nat bl) rest) by reflexivity.
  pose proof (count_bits_nonneg (bitmap_of (b0 :: b1 :: rest))) as Hcb.
  change (length (b0 :: b1 :: rest)) with (S (S (length rest))) in *.
  assert (Hup : used_prefix pr = bitmap_of (b0 :: b1 :: rest)).
  { unfold used_prefix, pr. cbn [sp_n sp_used]. fold n bl. rewrite Ebm. apply firstn_all2.
    rewrite firstn_length. lia. }
  assert (Hsl : sig_len pr = 32 * (1 + count_bits (bitmap_of (b0 :: b1 :: rest)))).
  { unfold sig_len, n_used_inputs. rewrite Hup. reflexivity. }
  split; [| unfold serialized_size; rewrite Hsl; cbn [sp_n pr]; fold n bl; lia].
  unfold serialize_bytes. rewrite Hup, Hsl. cbn [sp_n sp_data pr]. fold n bl.
  replace (Z.to_nat (2 + bl)) with (S (S (Z.to_nat bl))) by lia. cbn [skipn].
  rewrite En, E0, E1. cbn [app]. do 2 f_equal.
  rewrite firstn_all2 by (rewrite skipn_length; lia).
  rewrite Ebm. apply firstn_skipn.
Qed.

(* a well-formed object: what initialize / parse / generate produce *)
Definition wf_proof (pr : sproof) : Prop :=
  0 <= sp_n pr <= 256 /\
  (Z.to_nat (bitmap_len (sp_n pr)) <= length (sp_used pr))%nat /\
  (Z.to_nat (sig_len pr) <= length (sp_data pr))%nat /\
  (forall j, sp_n pr mod 8 <> 0 -> sp_n pr mod 8 <= j < 8 ->
     Z.testbit (nth (Z.to_nat (bitmap_len (sp_n pr) - 1)) (sp_used pr) 0) j = false).

Lemma nth_app_firstn : forall (l r : bytes) k i, (i < k)%nat -> (k <= length l)%nat -> nth i (firstn k l ++ r) 0 = nth i l 0.
Proof.
  intros l r k i Hi Hk. rewrite app_nth1 by (rewrite firstn_length; lia).
  revert l k Hi Hk. induction i; intros [|x l] [|k] Hi Hk; simpl in *; try lia; auto. apply IHi; lia.
Qed.

Lemma serialize_fields : forall pr, wf_proof pr ->
  n_field (serialize_bytes pr) = sp_n pr /\ bitmap_of (serialize_bytes pr) = used_prefix pr /\
  skipn (Z.to_nat (2 + bitmap_len (sp_n pr))) (serialize_bytes pr) = firstn (Z.to_nat (sig_len pr)) (sp_data pr) /\
  Z.of_nat (length (serialize_bytes pr)) = 2 + bitmap_len (sp_n pr) + sig_len pr.
Proof.
  intros pr (Hn & Hu & Hd & _). unfold bitmap_of, n_field, serialize_bytes.
  set (n := sp_n pr) in *. set (bl := bitmap_len n) in *.
  assert (Hbl : 0 <= bl) by (apply bitmap_len_nonneg; lia).
  assert (Hsl : 0 <= sig_len pr) by (unfold sig_len, n_used_inputs; pose proof (count_bits_nonneg (used_prefix pr)); lia).
  assert (Lup : length (used_prefix pr) = Z.to_nat bl) by (unfold used_prefix; fold n bl; rewrite firstn_length; lia).
  assert (E0 : (n / 256 mod 256) * 256 + n mod 256 = n).
  { rewrite (Z.mod_small (n / 256)) by (split; [apply Z.div_pos; lia | apply Z.div_lt_upper_bound; lia]).
    pose proof (Z.div_mod n 256). lia. }
  cbn [app nth skipn]. rewrite E0. fold bl.
  replace (Z.to_nat (2 + bl)) with (S (S (Z.to_nat bl))) by lia. cbn [skipn length].
  rewrite <- Lup, firstn_app_len, skipn_app_len, app_length, firstn_length, Lup. repeat split. lia.
Qed.

Lemma serialize_is_canonical : forall pr, wf_proof pr -> canonical (serialize_bytes pr).
Proof.
  intros pr Hwf. destruct (serialize_fields pr Hwf) as (En & Ebm & _ & Elen). destruct Hwf as (Hn & Hu & _ & Hpad).
  unfold canonical. rewrite En, Ebm, Elen.
  pose proof (bitmap_len_nonneg _ (proj1 Hn)) as Hbl.
  pose proof (count_bits_nonneg (used_prefix pr)) as Hcb.
  unfold sig_len, n_used_inputs. repeat split; try lia.
  intros j Hnz Hj. pose proof (bitmap_len_pos _ (proj1 Hn) Hnz) as Hbl1.
  unfold serialize_bytes, used_prefix.
  replace (Z.to_nat (2 + bitmap_len (sp_n pr) - 1)) with (S (S (Z.to_nat (bitmap_len (sp_n pr) - 1)))) by lia.
  cbn [app nth]. rewrite nth_app_firstn by lia. apply Hpad; assumption.
Qed.

(* the i-th ring scalar of the proof, as stored: data[32+32i .. 64+32i) *)
Definition proof_scalar_bytes (pr : sproof) (i : nat) : bytes := firstn 32 (skipn (32 + 32 * i)%nat (sp_data pr)).

(* the list mapped over is data_chunks d k, and wl_chunks d k of Model/Whitelist.v *)
Lemma forallb_chunks : forall (f : bytes -> bool) d k,
  forallb f (map (fun i => firstn 32 (skipn (32 + 32 * i)%nat d)) (seq 0 k)) = true <->
  forall i, (i < k)%nat -> f (firstn 32 (skipn (32 + 32 * i)%nat d)) = true.
Proof.
  intros. rewrite forallb_forall. split.
  - intros H i Hi. apply H. apply in_map_iff. exists i. split; [reflexivity | apply in_seq; lia].
  - intros H c Hc. apply in_map_iff in Hc. destruct Hc as (i & <- & Hi). apply in_seq in Hi. apply H. lia.
Qed.

Section Verify.
Variable P : Params.

Lemma load_scalars_spec : forall chunks,
  load_scalars P chunks =
  if forallb (fun c => be_val c <? cn P) chunks then Some (map (fun c => be_val c mod cn P) chunks) else None.
Proof.
  induction chunks as [| x r IH]; [reflexivity |]. cbn [load_scalars forallb map]. unfold sc_of_b32.
  rewrite IH, Z.leb_antisym. destruct (be_val x <? cn P); cbn [negb andb]; [| reflexivity].
  destruct (forallb _ r); reflexivity.
Qed.

(* verify returns 1 iff the counts are consistent, every stored scalar is < n, and the Borromean ring
   signature over (output - selected inputs) holds *)
Lemma verify_iff : forall pr in_tags out_tag,
  verify P pr in_tags out_tag = true <->
  (n_used_inputs pr <> 0 /\ n_used_inputs pr <= sp_n pr /\ n_used_inputs pr <= 256 /\
   sp_n pr = Z.of_nat (length in_tags) /\
   (forall i, (i < Z.to_nat (n_used_inputs pr))%nat -> be_val (proof_scalar_bytes pr i) < cn P) /\
   borromean_verify P (firstn 32 (sp_data pr))
     (map (fun c => be_val c mod cn P) (data_chunks (sp_data pr) (Z.to_nat (n_used_inputs pr))))
     (fst (compute_public_keys P in_tags 0 (sp_used pr) (tag_load out_tag) 0 0))
     [Z.to_nat (n_used_inputs pr)] 1 (genmessage in_tags out_tag) = true).
Proof.
  intros pr it o. unfold verify, n_total_inputs, SJ_MAX_USED_INPUTS. rewrite load_scalars_spec.
  assert (F : forallb (fun c => be_val c <? cn P) (data_chunks (sp_data pr) (Z.to_nat (n_used_inputs pr))) = true <->
              forall i, (i < Z.to_nat (n_used_inputs pr))%nat -> be_val (proof_scalar_bytes pr i) < cn P).
  { unfold data_chunks. rewrite forallb_chunks. split; intros H i Hi; apply Z.ltb_lt, H, Hi. }
  destruct (Z.eqb_spec (n_used_inputs pr) 0); cbn [negb orb].
  { split; [discriminate | intros (X & _); contradiction]. }
  destruct (Z.ltb_spec (sp_n pr) (n_used_inputs pr)); cbn [negb orb].
  { split; [discriminate | intros (_ & X1 & _); lia]. }
  destruct (Z.eqb_spec (sp_n pr) (Z.of_nat (length it))); cbn [negb orb].
  2:{ split; [discriminate | intros (_ & _ & _ & X1 & _); contradiction]. }
  destruct (Z.ltb_spec 256 (n_used_inputs pr)).
  { split; [discriminate | intros (_ & _ & X1 & _); lia]. }
  destruct (forallb _ _).
  - split; [intros Hv; repeat split; auto; try lia; apply F; reflexivity | intros (_ & _ & _ & _ & _ & Hv); exact Hv].
  - split; [discriminate | intros (_ & _ & _ & _ & Hs & _)]. apply F in Hs. discriminate.
Qed.
End Verify.

Lemma nth_upd_same : forall (l : bytes) i v, (i < length l)%nat -> nth i (upd i v l) 0 = v.
Proof. induction l; intros [|i] v H; simpl in *; try lia; auto. apply IHl. lia. Qed.
Lemma nth_upd_other : forall (l : bytes) i j v, i <> j -> nth j (upd i v l) 0 = nth j l 0.
Proof. induction l; intros [|i] [|j] v H; simpl in *; try lia; auto. Qed.
Lemma upd_length : forall {A} (l : list A) i v, length (upd i v l) = length l.
Proof. induction l; intros [|i] v; simpl; auto. Qed.
Lemma firstn_upd : forall {A} (l : list A) i v, firstn i (upd i v l) = firstn i l.
Proof. induction l; intros [|i] v; simpl; auto. f_equal. apply IHl. Qed.
Lemma skipn_upd : forall {A} (l : list A) i v, skipn (S i) (upd i v l) = skipn (S i) l.
Proof. induction l; intros [|i] v; auto. apply IHl. Qed.

Lemma bit_set_length : forall used i, length (bit_set used i) = length used.
Proof. intros. apply upd_length. Qed.

Lemma byte_index : forall (used : bytes) i, 0 <= i < 8 * Z.of_nat (length used) -> 0 <= i / 8 < Z.of_nat (length used).
Proof. intros. split; [apply Z.div_pos; lia | apply Z.div_lt_upper_bound; lia]. Qed.

Lemma bit_set_same : forall used i, 0 <= i < 8 * Z.of_nat (length used) -> bit_test (bit_set used i) i = true.
Proof.
  intros used i Hi. unfold bit_test, bit_set. pose proof (byte_index used i Hi).
  rewrite nth_upd_same by lia. rewrite Z.lor_spec, Z.pow2_bits_true by (apply Z.mod_pos_bound; lia).
  apply orb_true_r.
Qed.

Lemma bit_set_mono : forall used i j, bit_test used j = true -> bit_test (bit_set used i) j = true.
Proof.
  intros used i j H. unfold bit_test, bit_set in *.
  destruct (Nat.eq_dec (Z.to_nat (i / 8)) (Z.to_nat (j / 8))) as [E | E].
  - destruct (Nat.lt_ge_cases (Z.to_nat (i / 8)) (length used)) as [L | L].
    + rewrite <- E, nth_upd_same by assumption. rewrite Z.lor_spec. rewrite E, H. reflexivity.
    + rewrite <- E in *. rewrite nth_overflow in H by lia. rewrite Z.bits_0 in H. discriminate.
  - rewrite nth_upd_other by assumption. exact H.
Qed.

Lemma popcount8_set : forall b j, 0 <= j < 8 -> Z.testbit b j = false ->
  popcount8 (Z.lor b (2 ^ j)) = popcount8 b + 1.
Proof.
  intros b j Hj Hb. unfold popcount8. rewrite !Z.lor_spec. rewrite !Z.pow2_bits_eqb by lia.
  assert (C : j = 0 \/ j = 1 \/ j = 2 \/ j = 3 \/ j = 4 \/ j = 5 \/ j = 6 \/ j = 7) by lia.
  destruct C as [-> | [-> | [-> | [-> | [-> | [-> | [-> | ->]]]]]]]; cbn [Z.eqb Pos.eqb];
    rewrite Hb, ?orb_false_r; cbn [orb b2z]; lia.
Qed.

Lemma count_bits_upd : forall l i v, (i < length l)%nat ->
  count_bits (upd i v l) = count_bits l - popcount8 (nth i l 0) + popcount8 v.
Proof.
  induction l; intros [| i] v H; simpl in *; try lia. rewrite IHl by lia. lia.
Qed.

Lemma count_bits_bit_set : forall used i, 0 <= i < 8 * Z.of_nat (length used) -> bit_test used i = false ->
  count_bits (bit_set used i) = count_bits used + 1.
Proof.
  intros used i Hi Hb. unfold bit_set, bit_test in *. pose proof (byte_index used i Hi).
  rewrite count_bits_upd by lia. rewrite popcount8_set; [lia | apply Z.mod_pos_bound; lia | exact Hb].
Qed.

Lemma csprng_next_range : forall fuel c m v c', 0 < m -> csprng_next fuel c m = Some (v, c') -> 0 <= v < m.
Proof.
  induction fuel; intros c m v c' Hm H; cbn [csprng_next] in H; [discriminate |].
  destruct c as [st i].
  destruct (32 <=? i + (if 256 <? m then 2 else 1));
    (match type of H with (if ?c then _ else _) = _ => destruct c end;
     [inversion H; subst; apply Z.mod_pos_bound; lia | eapply IHfuel; eauto]).
Qed.

(* unary 4096 and 65536: never to be unfolded *)
Local Opaque CSPRNG_FUEL PICK_FUEL.

(* invariant of the selection loops: the bitmap keeps its length, [cnt] bits are set, and a recorded index
   is selected, in range, and holds the output tag *)
Definition found_ok (tags : list bytes) (out : bytes) (used : bytes) (found : option Z) : Prop :=
  match found with
  | None => True
  | Some idx => bit_test used idx = true /\ nth (Z.to_nat idx) tags [] = out /\ 0 <= idx < Z.of_nat (length tags)
  end.
Definition sel_inv (tags : list bytes) (out : bytes) (len : nat) (cnt : Z) (used : bytes) (found : option Z) : Prop :=
  length used = len /\ count_bits used = cnt /\ found_ok tags out used found.

Lemma pick_index_sel : forall fuel c n tags out used found used' c' found' len cnt,
  n = Z.of_nat (length tags) -> 0 < n -> n <= 8 * Z.of_nat len ->
  sel_inv tags out len cnt used found ->
  pick_index fuel c n tags out used found = Some (used', c', found') ->
  sel_inv tags out len (cnt + 1) used' found'.
Proof.
  induction fuel; intros c n tags out used found used' c' found' len cnt Hn Hpos Hlen (L & C & Hinv) H;
    cbn [pick_index] in H; [discriminate |].
  destruct (csprng_next CSPRNG_FUEL c n) as [[idx c1] |] eqn:Ec; [| discriminate].
  pose proof (csprng_next_range _ _ _ _ _ Hpos Ec) as Hr. subst len.
  set (found1 := if bytes_eqb (nth (Z.to_nat idx) tags []) out then Some idx else found) in H.
  destruct (bit_test used idx) eqn:Eb.
  - refine (IHfuel _ _ _ _ _ _ _ _ _ _ _ Hn Hpos Hlen (conj eq_refl (conj C _)) H).
    unfold found1. destruct (bytes_eqb _ out) eqn:Et; [| exact Hinv].
    apply bytes_eqb_eq in Et. simpl. repeat split; auto; lia.
  - inversion H; subst used' c' found'.
    split; [apply bit_set_length | split; [rewrite count_bits_bit_set; [lia | lia | exact Eb] |]].
    unfold found1. destruct (bytes_eqb _ out) eqn:Et.
    + apply bytes_eqb_eq in Et. simpl. repeat split; auto; try lia. apply bit_set_same. lia.
    + destruct found as [j |]; [| exact I]. destruct Hinv as (H1 & H2 & H3).
      split; [apply bit_set_mono; exact H1 | split; [exact H2 | lia]].
Qed.

Lemma pick_n_sel : forall k c n tags out used found used' c' found' len cnt,
  n = Z.of_nat (length tags) -> 0 < n -> n <= 8 * Z.of_nat len ->
  sel_inv tags out len cnt used found ->
  pick_n k c n tags out used found = Some (used', c', found') ->
  sel_inv tags out len (cnt + Z.of_nat k) used' found'.
Proof.
  induction k; intros c n tags out used found used' c' found' len cnt Hn Hpos Hlen I0 H; cbn [pick_n] in H.
  - inversion H; subst. replace (cnt + Z.of_nat 0) with cnt by lia. exact I0.
  - destruct (pick_index PICK_FUEL c n tags out used found) as [[[u1 c1] f1] |] eqn:E; [| discriminate].
    pose proof (pick_index_sel _ _ _ _ _ _ _ _ _ _ _ _ Hn Hpos Hlen I0 E) as I1.
    replace (cnt + Z.of_nat (S k)) with (cnt + 1 + Z.of_nat k) by lia.
    exact (IHk _ _ _ _ _ _ _ _ _ _ _ Hn Hpos Hlen I1 H).
Qed.

Lemma init_loop_ok : forall fuel iters c n k tags out n_max it idx used,
  n = Z.of_nat (length tags) -> 0 < n <= 256 ->
  init_loop fuel iters c n k tags out n_max = InitOk it idx used ->
  sel_inv tags out 32 (Z.of_nat (Z.to_nat k)) used (Some idx) /\ iters < it <= iters + Z.of_nat fuel.
Proof.
  induction fuel; intros iters c n k tags out n_max it idx used Hn Hr H; cbn [init_loop] in H; [discriminate |].
  destruct (pick_n (Z.to_nat k) c n tags out (zeros 32) None) as [[[u1 c1] f1] |] eqn:E; [| discriminate].
  assert (I0 : sel_inv tags out 32 0 (zeros 32) None) by (repeat split; apply count_bits_zeros).
  assert (HL : n <= 8 * Z.of_nat 32) by lia.
  pose proof (pick_n_sel _ _ _ _ _ _ _ _ _ _ _ _ Hn (proj1 Hr) HL I0 E) as I1. cbn [Z.add] in I1.
  destruct f1 as [j |].
  - inversion H; subst it idx used. split; [exact I1 | lia].
  - destruct (n_max <=? iters + 1); [discriminate |].
    destruct (IHfuel _ _ _ _ _ _ _ _ _ _ Hn Hr H) as [A B]. split; [exact A | lia].
Qed.

(* the outer loop's fuel max(1, n_max_iterations) is exact: the model abstains only when one of the inner
   "draw until unused" loops ran out of its (generous) fuel, never because of the iteration limit *)
Lemma init_loop_fuel_exact : forall fuel iters c n k tags out n_max,
  n_max <= iters + Z.of_nat fuel -> (0 < fuel)%nat ->
  init_loop fuel iters c n k tags out n_max = InitOutOfFuel ->
  exists c', pick_n (Z.to_nat k) c' n tags out (zeros 32) None = None.
Proof.
  induction fuel; intros iters c n k tags out n_max Hm Hf H; [lia |]. cbn [init_loop] in H.
  destruct (pick_n (Z.to_nat k) c n tags out (zeros 32) None) as [[[u1 c1] f1] |] eqn:E.
  - destruct f1; [discriminate |].
    destruct (Z.leb_spec n_max (iters + 1)); [discriminate |].
    destruct fuel; [lia |].
    assert (Hm1 : n_max <= iters + 1 + Z.of_nat (S fuel)) by lia.
    assert (Hf1 : (0 < S fuel)%nat) by lia.
    exact (IHfuel (iters + 1) c1 n k tags out n_max Hm1 Hf1 H).
  - exists c. exact E.
Qed.

Definition nz (x : Z) : bool := negb (x =? 0).
Definition ninf (Q : point) : bool := negb (is_inf Q).

(* a canonical one-input proof: n = 1, bitmap 01, e0 and one scalar *)
Example parse_example : exists pr, parse (1 :: 0 :: 1 :: repeat 7 64) = Some pr /\ wf_proof pr /\ n_used_inputs pr = 1.
Proof.
  eexists. split; [vm_compute; reflexivity |]. split; [| vm_compute; reflexivity].
  unfold wf_proof. cbn [sp_n sp_used sp_data]. repeat split; try (vm_compute; congruence); try (vm_compute; lia).
  intros j _ Hj. change (1 mod 8) with 1 in Hj. change (nth (Z.to_nat (bitmap_len 1 - 1)) [1] 0) with 1.
  assert (C : j = 1 \/ j = 2 \/ j = 3 \/ j = 4 \/ j = 5 \/ j = 6 \/ j = 7) by lia.
  destruct C as [-> | [-> | [-> | [-> | [-> | [-> | ->]]]]]]; reflexivity.
Qed.
(* initialize succeeds on a two-input list whose second input is the output tag *)
Local Transparent CSPRNG_FUEL PICK_FUEL.
Example initialize_example :
  exists it idx used, initialize [repeat 1 32; repeat 2 32] 1 (repeat 2 32) 10 (repeat 7 32) = InitOk it idx used.
Proof. do 3 eexists. vm_compute. reflexivity. Qed.
