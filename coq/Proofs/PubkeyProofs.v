(* Lemmas about the public-key codec model (Model/Base.v, Model/Keys.v). *)
From Coq Require Import ZArith List Bool Lia.
Require Import Spec.Params Spec.Field Spec.Curve Spec.Bytes.
Require Import Model.Base Model.Keys Proofs.BytesLemmas Proofs.CurveLemmas Proofs.BaseLemmas.
Import ListNotations.
Local Open Scope Z_scope.
Local Opaque be_enc.

Section PubkeyProofs.
Variable P : Params.
Notation p := (cp P).
Hypothesis Hp : 0 < p.
Hypothesis Hp256 : p <= 2 ^ 256.

(* everything the parser accepts is a finite point on the curve; the shape of accepted strings *)
Lemma pubkey_parse_sound b Q : eckey_pubkey_parse P b = Some Q ->
  Q <> None /\ on_curve P Q = true /\
  ((length b = 33%nat /\ (nth 0 b 0 = 2 \/ nth 0 b 0 = 3)) \/
   (length b = 65%nat /\ (nth 0 b 0 = 4 \/ nth 0 b 0 = 6 \/ nth 0 b 0 = 7))).
Proof.
  unfold eckey_pubkey_parse. destruct b as [|tag rest]; [discriminate|].
  destruct ((length (tag :: rest) =? 33)%nat && ((tag =? 2) || (tag =? 3))) eqn:E33.
  - apply andb_true_iff in E33. destruct E33 as [EL Et]. apply Nat.eqb_eq in EL.
    destruct (fe_of_b32 P rest) as [x|]; [|discriminate]. unfold ge_set_xo.
    destruct (lift_x P x (tag =? 3)) as [Q'|] eqn:El; [|discriminate].
    intros H; inversion H; subst Q. apply (lift_x_on_curve P Hp) in El. destruct El as [El _].
    split; [discriminate|split; [exact El|left]]. split; [exact EL|]. cbn [nth].
    apply orb_true_iff in Et. destruct Et as [Et|Et]; apply Z.eqb_eq in Et; auto.
  - destruct ((length (tag :: rest) =? 65)%nat && ((tag =? 4) || (tag =? 6) || (tag =? 7))) eqn:E65; [|discriminate].
    apply andb_true_iff in E65. destruct E65 as [EL Et]. apply Nat.eqb_eq in EL.
    destruct (fe_of_b32 P (firstn 32 rest)) as [x|]; [|discriminate].
    destruct (fe_of_b32 P (skipn 32 rest)) as [y|]; [|discriminate].
    destruct (((tag =? 6) || (tag =? 7)) && negb (Bool.eqb (Z.odd y) (tag =? 7))); [discriminate|].
    destruct (on_curve P (Some (x, y))) eqn:Eo; [|discriminate].
    intros H; inversion H; subst Q. split; [discriminate|split; [exact Eo|right]]. split; [exact EL|]. cbn [nth].
    apply orb_true_iff in Et. destruct Et as [Et|Et]; [apply orb_true_iff in Et; destruct Et as [Et|Et]|]; apply Z.eqb_eq in Et; auto.
Qed.

(* uncompressed and hybrid encodings of an on-curve point parse back to that point *)
Lemma parse_tagged65 tag x y : on_curve P (Some (x, y)) = true -> (tag = 4 \/ tag = 6 \/ tag = 7) ->
  eckey_pubkey_parse P (tag :: fe_to_b32 x ++ fe_to_b32 y) =
    if ((tag =? 6) || (tag =? 7)) && negb (Bool.eqb (Z.odd y) (tag =? 7)) then None else Some (Some (x, y)).
Proof.
  intros Ho Ht. destruct (on_curve_range P x y Ho) as [Hx Hy].
  unfold eckey_pubkey_parse.
  assert (EL : length (tag :: fe_to_b32 x ++ fe_to_b32 y) = 65%nat) by (cbn [length]; rewrite app_length, !fe_to_b32_length; reflexivity).
  rewrite EL. cbn [Nat.eqb andb].
  replace ((tag =? 2) || (tag =? 3)) with false by (destruct Ht as [->|[->| ->]]; reflexivity).
  replace ((tag =? 4) || (tag =? 6) || (tag =? 7)) with true by (destruct Ht as [->|[->| ->]]; reflexivity).
  cbn [andb].
  rewrite (firstn_app_exact _ _ 32 (fe_to_b32_length x)), (skipn_app_exact _ _ 32 (fe_to_b32_length x)).
  rewrite !(fe_roundtrip P Hp256) by assumption. rewrite Ho. reflexivity.
Qed.

Lemma uncompressed_roundtrip x y : on_curve P (Some (x, y)) = true ->
  eckey_pubkey_parse P (ser65 (Some (x, y))) = Some (Some (x, y)).
Proof. intros Ho. unfold ser65. rewrite parse_tagged65 by auto. reflexivity. Qed.

(* buffer-length contract of ec_pubkey_serialize: too small a buffer is an illegal-argument call that
   writes nothing; otherwise the length is set to 33/65 exactly and the rest of the buffer is zeroed *)
Lemma serialize_contract outlen obj flags :
  let need := if Z.testbit flags 8 then 33 else 65 in
  (outlen < need -> ec_pubkey_serialize outlen obj flags = [AInt 0; AInt outlen; AIll 1]) /\
  (need <= outlen -> Z.land flags 255 = 2 -> forall Q, pk_load obj = Some Q ->
     exists s, ec_pubkey_serialize outlen obj flags = [AInt 1; AInt need; ABytes (s ++ zeros (Z.to_nat outlen - length s))]
               /\ s = (if Z.testbit flags 8 then ser33 Q else ser65 Q)).
Proof.
  cbv zeta. unfold ec_pubkey_serialize. split.
  - intros H. replace (outlen <? (if Z.testbit flags 8 then 33 else 65)) with true by (symmetry; apply Z.ltb_lt; lia). reflexivity.
  - intros H Hf Q HQ. replace (outlen <? (if Z.testbit flags 8 then 33 else 65)) with false by (symmetry; apply Z.ltb_ge; lia).
    rewrite Hf. cbn [Z.eqb negb]. rewrite HQ. eexists. split; reflexivity.
Qed.
End PubkeyProofs.
