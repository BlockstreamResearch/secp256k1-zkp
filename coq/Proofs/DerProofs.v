(* The DER and compact signature codecs of Model/Der.v: an integer is accepted exactly in its minimal encoding
   (der_parse_integer_content / _inv), serialisation followed by parsing is the identity, a failed parse leaves the zero signature. *)
From Coq Require Import ZArith List Bool Lia.
Require Import Spec.Params Spec.Field Spec.Curve Spec.Bytes.
Require Import Model.Base Model.Der Model.Ecdsa Proofs.BytesLemmas Proofs.BaseLemmas.
Import ListNotations.
Local Open Scope Z_scope.
Local Ltac Zify.zify_post_hook ::= Z.div_mod_to_equations.

(* der_int writes the minimal two's-complement content bytes of a non-negative integer *)
Definition hd_small (b : bytes) : Prop := match b with x :: _ => 0 <= x < 0x80 | [] => False end.
Definition der_minimal (b : bytes) : Prop := match b with 0 :: x :: _ => 0x80 <= x | _ => True end.

Lemma der_strip_spec fuel : forall b, bytes_okP b -> hd_small b -> (length b <= S fuel)%nat ->
  let b' := der_strip fuel b in
  bytes_okP b' /\ hd_small b' /\ der_minimal b' /\ be_val b' = be_val b /\ (1 <= length b' <= length b)%nat.
Proof.
  induction fuel as [|f IH]; intros b Hok Hh Hl; cbv zeta; cbn [der_strip].
  - destruct b as [|x [|y t]]; simpl in *; try contradiction; try lia.
    repeat split; auto; simpl; try lia. destruct (Z.eq_dec x 0); subst; simpl; auto. destruct x; auto; destruct p; auto.
  - destruct b as [|x t]; [contradiction|].
    destruct (Z.eq_dec x 0) as [->|Hx].
    + destruct t as [|y t'].
      * repeat split; auto; simpl; lia.
      * destruct (y <? 0x80) eqn:Ey.
        -- inversion Hok as [|? ? _ Hok']; subst.
           assert (Hy : hd_small (y :: t')) by (inversion Hok'; subst; simpl; lia).
           destruct (IH (y :: t') Hok' Hy ltac:(simpl in *; lia)) as [A [B [C [D E]]]]. cbv zeta in *.
           repeat split; auto; try (rewrite D, (be_val_cons 0); lia); simpl in *; lia.
        -- apply Z.ltb_ge in Ey. repeat split; auto; simpl; try lia.
    + assert (E : der_strip (S f) (x :: t) = x :: t) by (cbn [der_strip]; destruct x; [congruence|reflexivity|reflexivity]).
      cbn [der_strip] in E. rewrite E.
      repeat split; auto; simpl in *; try lia. destruct x; auto; try congruence; try lia.
Qed.

Local Opaque der_strip be_enc.

Lemma der_read_len_short L rest : 0 <= L < 0x80 -> der_read_len (L :: rest) = Some (L, rest).
Proof.
  intros HL. cbn [der_read_len]. rewrite land_0x80 by lia.
  destruct (Z.eqb_spec L 0xFF); [lia|]. destruct (Z.ltb_spec L 0x80); [reflexivity|lia].
Qed.

Section DerProofs.
Variable P : Params.
Notation n := (cn P).
Hypothesis Hn : 0 < n.
Hypothesis Hn256 : n <= 2 ^ 256.

Lemma der_int_spec v : 0 <= v < 2 ^ 256 ->
  let b := der_int v in
  bytes_okP b /\ hd_small b /\ der_minimal b /\ be_val b = v /\ (1 <= length b <= 33)%nat.
Proof.
  intros Hv. unfold der_int, sc_to_b32.
  assert (Hok : bytes_okP (0 :: be_enc 32 v)) by (constructor; [lia|apply be_enc_ok]).
  assert (Hh : hd_small (0 :: be_enc 32 v)) by (simpl; lia).
  assert (Hl : Nat.le (length (0 :: be_enc 32 v)) 33) by (cbn [length]; rewrite be_enc_length; unfold Nat.le; lia).
  destruct (der_strip_spec 32 _ Hok Hh Hl) as [A [B [C [D E]]]].
  cbv zeta in *. cbn [length] in E. rewrite be_enc_length in E.
  split; [exact A|split; [exact B|split; [exact C|split]]].
  - rewrite D, be_val_cons, be_val_enc32 by lia. lia.
  - lia.
Qed.

Lemma der_parse_integer_content c rest :
  bytes_okP c -> hd_small c -> der_minimal c -> (1 <= length c <= 33)%nat -> 0 <= be_val c < n ->
  der_parse_integer P (0x02 :: Z.of_nat (length c) :: c ++ rest) = Some (be_val c, rest).
Proof.
  intros Hok Hh Hmin Hlen Hv. destruct c as [|b0 bt]; [contradiction|]. simpl in Hh.
  inversion Hok as [|? ? _ Hokt]; subst.
  set (L := Z.of_nat (length (b0 :: bt))) in *. assert (HL : 1 <= L <= 33) by lia.
  unfold der_parse_integer. rewrite der_read_len_short by lia.
  replace ((L =? 0) || (Z.of_nat (length ((b0 :: bt) ++ rest)) <? L)) with false
    by (symmetry; apply orb_false_iff; split; [apply Z.eqb_neq|apply Z.ltb_ge; rewrite app_length]; lia).
  cbn [app nth]. rewrite (land_0x80 b0) by lia.
  replace (b0 <? 0x80) with true by (symmetry; apply Z.ltb_lt; lia).
  replace (b0 =? 0xFF) with false by (symmetry; apply Z.eqb_neq; lia). cbn [andb orb Z.eqb].
  destruct (Z.eqb_spec b0 0) as [->|Hnz]; cbn [andb tl].
  - (* a leading zero stands only before a byte >= 0x80; it is skipped *)
    assert (Epad : (1 <? L) && (Z.land (nth 0 (bt ++ rest) 0) 0x80 =? 0) = false).
    { destruct bt as [|b1 bt']; [reflexivity|]. simpl in Hmin. inversion Hokt; subst. cbn [app nth].
      rewrite land_0x80 by lia. replace (b1 <? 0x80) with false by (symmetry; apply Z.ltb_ge; lia). apply andb_false_r. }
    rewrite Epad. replace (Z.to_nat (L - 1)) with (length bt) by (unfold L; cbn [length]; lia).
    rewrite firstn_app_len, skipn_app_len.
    replace (32 <? L - 1) with false by (symmetry; apply Z.ltb_ge; lia).
    replace (be_val (0 :: bt)) with (be_val bt) in * by (rewrite be_val_cons; lia).
    rewrite sc_of_b32_small by lia. reflexivity.
  - replace (Z.to_nat L) with (length (b0 :: bt)) by lia.
    change (b0 :: bt ++ rest) with ((b0 :: bt) ++ rest). rewrite firstn_app_len, skipn_app_len.
    (* 33 bytes with a non-zero first one would be a value of at least 2^256 *)
    assert (HL32 : L <= 32).
    { destruct (Z.eq_dec L 33) as [E33|]; [|lia]. exfalso.
      assert (El : length bt = 32%nat) by (unfold L in E33; cbn [length] in E33; lia).
      rewrite be_val_cons, El in Hv. pose proof (be_val_bound bt Hokt) as Bt. rewrite El in Bt.
      change (256 ^ Z.of_nat 32) with (2 ^ 256) in *. nia. }
    replace (32 <? L) with false by (symmetry; apply Z.ltb_ge; lia).
    rewrite sc_of_b32_small by lia. reflexivity.
Qed.

(* round trip: what the serializer writes (given a large enough buffer), the parser accepts as the same pair *)
Lemma der_serialize_parse r s size : 0 <= r < n -> 0 <= s < n ->
  let '(ret, need, out) := ecdsa_sig_serialize size r s in
  need = 6 + Z.of_nat (length (der_int r)) + Z.of_nat (length (der_int s)) /\ need <= 72 /\
  (ret = 1 <-> need <= size) /\ (ret = 0 \/ ret = 1) /\
  (ret = 1 -> Z.of_nat (length out) = need /\ ecdsa_sig_parse P out = Some (r, s)).
Proof.
  intros Hr Hs. unfold ecdsa_sig_serialize.
  destruct (der_int_spec r ltac:(lia)) as (OkR & HhR & MinR & ValR & HlR).
  destruct (der_int_spec s ltac:(lia)) as (OkS & HhS & MinS & ValS & HlS).
  set (rb := der_int r) in *. set (sb := der_int s) in *.
  set (lenR := Z.of_nat (length rb)). set (lenS := Z.of_nat (length sb)).
  destruct (size <? 6 + lenS + lenR) eqn:Esz.
  - apply Z.ltb_lt in Esz. repeat split; try lia; try (intros; discriminate).
  - apply Z.ltb_ge in Esz. repeat split; try lia.
    + rewrite !app_length. cbn [length]. unfold lenR, lenS. lia.
    + cbn [app]. unfold ecdsa_sig_parse. rewrite der_read_len_short by (unfold lenR, lenS; lia).
      replace (4 + lenS + lenR =? Z.of_nat (length (2 :: lenR :: rb ++ 2 :: lenS :: sb))) with true
        by (symmetry; apply Z.eqb_eq; cbn [length]; rewrite app_length; cbn [length]; unfold lenS, lenR; lia).
      cbn [negb]. unfold lenR, lenS.
      rewrite (der_parse_integer_content rb), ValR by (assumption || lia).
      rewrite <- (app_nil_r sb) at 2.
      rewrite (der_parse_integer_content sb), ValS by (assumption || lia). reflexivity.
Qed.

(* compact parser: exact acceptance, zeroed object on rejection *)
Lemma compact_parse_exact input64 :
  let r := be_val (firstn 32 input64) in let s := be_val (skipn 32 input64) in
  (r < n /\ s < n -> ecdsa_signature_parse_compact P input64 = [AInt 1; ABytes (sig_obj (r mod n) (s mod n))]) /\
  (~ (r < n /\ s < n) -> ecdsa_signature_parse_compact P input64 = [AInt 0; ABytes (zeros 64)]).
Proof.
  cbv zeta. unfold ecdsa_signature_parse_compact, sc_of_b32.
  destruct (n <=? be_val (firstn 32 input64)) eqn:A, (n <=? be_val (skipn 32 input64)) eqn:B; cbn [orb]; split; intros H; try reflexivity; try lia.
Qed.

Lemma der_parse_integer_inv inp v rest : der_parse_integer P inp = Some (v, rest) -> 0 <= v < n.
Proof.
  unfold der_parse_integer. destruct inp as [|[|p|] inp']; try discriminate. repeat (destruct p; try discriminate).
  destruct (der_read_len inp') as [[rlen body]|]; [|discriminate].
  destruct ((rlen =? 0) || _); [discriminate|].
  destruct (_ && _ && _); [discriminate|]. destruct (_ && _ && _); [discriminate|].
  unfold sc_of_b32. intros H. inversion H; subst.
  destruct (_ || _ || _); [lia|]. apply Z.mod_pos_bound; lia.
Qed.
Lemma ecdsa_sig_parse_inv input r s : ecdsa_sig_parse P input = Some (r, s) ->
  exists body rest1, der_parse_integer P body = Some (r, rest1) /\ der_parse_integer P rest1 = Some (s, []).
Proof.
  unfold ecdsa_sig_parse. destruct input as [|[|p|] inp]; try discriminate. repeat (destruct p; try discriminate).
  destruct (der_read_len inp) as [[rlen body]|]; [|discriminate].
  destruct (negb _); [discriminate|].
  destruct (der_parse_integer P body) as [[r' rest1]|] eqn:E1; [|discriminate].
  destruct (der_parse_integer P rest1) as [[s' [|]]|] eqn:E2; try discriminate.
  intros H. inversion H; subst. eauto.
Qed.

(* the DER parser either fails with a zeroed object or returns scalars below n *)
Lemma der_parse_outcomes input :
  ecdsa_signature_parse_der P input = [AInt 0; ABytes (zeros 64)] \/
  exists r s, ecdsa_signature_parse_der P input = [AInt 1; ABytes (sig_obj r s)] /\ 0 <= r < n /\ 0 <= s < n.
Proof.
  unfold ecdsa_signature_parse_der. destruct (ecdsa_sig_parse P input) as [[r s]|] eqn:E; [right|left; reflexivity].
  exists r, s. split; [reflexivity|]. apply ecdsa_sig_parse_inv in E. destruct E as (body & rest1 & E1 & E2).
  split; eapply der_parse_integer_inv; eassumption.
Qed.
End DerProofs.
