(* The streaming SHA-256 object computes the specification hash for every split of the input into writes. *)
From Coq Require Import ZArith List Bool Lia Arith.
Require Import Spec.Bytes Spec.Sha256 Model.Sha256Stream Proofs.BytesLemmas Proofs.Sha256Lemmas.
Import ListNotations.
Local Open Scope Z_scope.
Local Ltac Zify.zify_post_hook ::= Z.div_mod_to_equations.

(* canonical form of block absorption: fuel = length always suffices *)
Definition sb (s : sha_state) (bs : bytes) : sha_state := sha_blocks (length bs) s bs.

Lemma div64_small n : (n < 64 -> n / 64 = 0)%nat. Proof. intros. apply Nat.div_small. assumption. Qed.

Lemma sb_short s bs : (length bs < 64)%nat -> sb s bs = s.
Proof. apply sha_blocks_short. Qed.

Lemma sb_block s blk rest : length blk = 64%nat -> sb s (blk ++ rest) = sb (sha_compress s blk) rest.
Proof. apply sha_blocks_block. Qed.

Lemma sb_app s a b : (length a mod 64 = 0)%nat -> sb s (a ++ b) = sb (sb s a) b.
Proof.
  remember (length a) as n eqn:En. revert s a En. induction n as [n IH] using lt_wf_ind. intros s a En Hm.
  destruct (Nat.ltb_spec n 64) as [Hl|Hl].
  - assert (n = 0)%nat by (rewrite Nat.mod_small in Hm by assumption; assumption). subst n.
    destruct a; [|simpl in H; lia]. cbn [app]. rewrite (sb_short s []) by (simpl; lia). reflexivity.
  - remember (firstn 64 a) as h eqn:Eh. remember (skipn 64 a) as t eqn:Et.
    assert (Ea : a = h ++ t) by (subst h t; symmetry; apply firstn_skipn).
    assert (Hh : length h = 64%nat) by (subst h; rewrite firstn_length; lia).
    assert (Ht : length t = (n - 64)%nat) by (subst t; rewrite skipn_length; lia).
    clear Eh Et. subst a. rewrite <- app_assoc. rewrite (sb_block s h (t ++ b) Hh), (sb_block s h t Hh).
    apply (IH (n - 64)%nat); [lia|lia|]. clear IH.
    apply Nat.mod_divides in Hm; [|lia]. destruct Hm as [c Hc].
    apply Nat.mod_divides; [lia|]. exists (c - 1)%nat. lia.
Qed.

Lemma sb_one s blk : length blk = 64%nat -> sha_compress s blk = sb s blk.
Proof. intros H. rewrite <- (app_nil_r blk) at 2. rewrite sb_block by assumption. rewrite sb_short by (simpl; lia). reflexivity. Qed.

Lemma whole_rest (d : bytes) : let nb := (length d / 64)%nat in
  d = firstn (nb * 64) d ++ skipn (nb * 64) d /\ (length (firstn (nb * 64) d) mod 64 = 0)%nat /\
  (length (skipn (nb * 64) d) < 64)%nat /\ (length (firstn (nb * 64) d) / 64 <= length d)%nat.
Proof.
  cbv zeta. set (nb := (length d / 64)%nat).
  assert (Hle : (nb * 64 <= length d)%nat) by (unfold nb; rewrite Nat.mul_comm; apply Nat.mul_div_le; lia).
  assert (Hlt : (length d < nb * 64 + 64)%nat).
  { unfold nb. pose proof (Nat.div_mod (length d) 64 ltac:(lia)). pose proof (Nat.mod_upper_bound (length d) 64 ltac:(lia)). lia. }
  split; [symmetry; apply firstn_skipn|]. rewrite firstn_length_le by lia. rewrite skipn_length.
  split; [apply Nat.mod_mul; lia|]. split; [lia|]. rewrite Nat.div_mul by lia. unfold nb. apply Nat.div_le_upper_bound; lia.
Qed.

Lemma mod64_app {A} (a b : list A) : (length a mod 64 = 0 -> length b mod 64 = 0 -> length (a ++ b) mod 64 = 0)%nat.
Proof. intros Ha Hb. rewrite app_length, Nat.add_mod, Ha, Hb by lia. reflexivity. Qed.

Lemma sha_write_bytes c data : sbytes (sha_write c data) = sbytes c + Z.of_nat (length data).
Proof. unfold sha_write. destruct (_ && _); destruct (Nat.leb 64 _); reflexivity. Qed.
(* one write: the pending bytes followed by the input are split into whole blocks W, which are absorbed,
   and a rest shorter than a block, which is kept *)
Lemma sha_write_spec c data : (length (sbuf c) < 64)%nat ->
  exists W, (length W mod 64 = 0)%nat /\ sbuf c ++ data = W ++ sbuf (sha_write c data) /\
            (length (sbuf (sha_write c data)) < 64)%nat /\ sst (sha_write c data) = sb (sst c) W.
Proof.
  intros Hp. unfold sha_write. set (p := sbuf c) in *. set (k := (64 - length p)%nat).
  destruct (negb (length p =? 0)%nat && (k <=? length data)%nat) eqn:C1.
  - (* the input completes the pending block *)
    apply andb_true_iff in C1. destruct C1 as [C1a C1b]. apply negb_true_iff, Nat.eqb_neq in C1a. apply Nat.leb_le in C1b.
    set (blk := p ++ firstn k data). set (d1 := skipn k data).
    assert (Hblk : length blk = 64%nat) by (unfold blk; rewrite app_length, firstn_length_le by lia; unfold k; lia).
    assert (Hall : p ++ data = blk ++ d1) by (unfold blk, d1; rewrite <- app_assoc, firstn_skipn; reflexivity).
    rewrite Hall. destruct (64 <=? length d1)%nat eqn:C2; cbn [sst sbuf app].
    + destruct (whole_rest d1) as [E1 [E2 [E3 E4]]]. set (wd := firstn (length d1 / 64 * 64) d1) in *.
      exists (blk ++ wd). split; [apply mod64_app; [rewrite Hblk; reflexivity|exact E2]|].
      split; [rewrite E1 at 1; apply app_assoc|]. split; [exact E3|].
      rewrite sha_blocks_fuel, sb_block by assumption. reflexivity.
    + apply Nat.leb_gt in C2. exists blk. rewrite Hblk, <- sb_one by assumption. auto.
  - (* the pending block stays incomplete, or there is none *)
    apply andb_false_iff in C1. rewrite negb_false_iff, Nat.eqb_eq, Nat.leb_gt in C1. unfold k in C1.
    destruct (64 <=? length data)%nat eqn:C2; cbn [sst sbuf].
    + apply Nat.leb_le in C2. assert (Ep : p = []) by (apply length_zero_iff_nil; lia). rewrite Ep. cbn [app].
      destruct (whole_rest data) as [E1 [E2 [E3 E4]]]. set (wd := firstn (length data / 64 * 64) data) in *.
      exists wd. rewrite sha_blocks_fuel by exact E4. auto.
    + apply Nat.leb_gt in C2. exists []. split; [reflexivity|]. split; [reflexivity|]. split; [rewrite app_length; lia|].
      symmetry. apply sb_short. simpl; lia.
Qed.

(* the invariant: the state has absorbed a prefix W made of whole blocks; the buffer holds the rest *)
Definition Inv (c : sha_ctx) (msg : bytes) : Prop :=
  exists W, (length W mod 64 = 0)%nat /\ msg = W ++ sbuf c /\ (length (sbuf c) < 64)%nat /\
            sst c = sb sha_iv W /\ sbytes c = Z.of_nat (length msg).
(* the same for an object started from a midstate s0 that stands for pre bytes (whole blocks) *)
Definition InvFrom (s0 : sha_state) (pre : Z) (c : sha_ctx) (msg : bytes) : Prop :=
  exists W, (length W mod 64 = 0)%nat /\ msg = W ++ sbuf c /\ (length (sbuf c) < 64)%nat /\
            sst c = sb s0 W /\ sbytes c = pre + Z.of_nat (length msg).

Lemma inv_from_init s0 pre : InvFrom s0 pre (sha_initialize_midstate pre s0) [].
Proof. exists []. cbn. repeat split; try reflexivity; lia. Qed.
Lemma inv_init : Inv sha_initialize [].
Proof. exact (inv_from_init sha_iv 0). Qed.

Lemma inv_write s0 pre c msg data : InvFrom s0 pre c msg -> InvFrom s0 pre (sha_write c data) (msg ++ data).
Proof.
  intros (W0 & HW0 & Hmsg & Hp & Hst & Hb). destruct (sha_write_spec c data Hp) as (W & HW & Hall & Hp' & Hst').
  exists (W0 ++ W). split; [apply mod64_app; assumption|].
  split; [rewrite Hmsg, <- !app_assoc, Hall; reflexivity|]. split; [exact Hp'|].
  split; [rewrite Hst', Hst; symmetry; apply sb_app; exact HW0|].
  rewrite sha_write_bytes, Hb, app_length. lia.
Qed.

Lemma inv_fold s0 pre chunks : forall c msg, InvFrom s0 pre c msg ->
  InvFrom s0 pre (fold_left sha_write chunks c) (msg ++ concat chunks).
Proof.
  induction chunks as [|d ds IH]; intros c msg H; cbn [fold_left concat].
  - rewrite app_nil_r. exact H.
  - rewrite app_assoc. apply IH. apply inv_write. exact H.
Qed.

(* once whole blocks have been written, nothing is pending *)
Lemma inv_whole s0 pre c msg : InvFrom s0 pre c msg -> (length msg mod 64 = 0)%nat -> sst c = sb s0 msg.
Proof.
  intros (W & HW & Hmsg & Hp & Hst & _) Hm. rewrite Hmsg, app_length, Nat.add_mod, HW, Nat.add_0_l, Nat.mod_mod, Nat.mod_small in Hm by lia.
  destruct (sbuf c); [|simpl in Hm; lia].
  rewrite app_nil_r in Hmsg. rewrite Hmsg. exact Hst.
Qed.

Lemma firstn_repeat0 k m : (k <= m)%nat -> firstn k (repeat 0 m) = repeat 0 k.
Proof. revert m. induction k; intros m H; [reflexivity|]. destruct m; [lia|]. cbn. f_equal. apply IHk. lia. Qed.

(* the two 4-byte halves written by finalize are the 8-byte bit length *)
Lemma size_desc L : 0 <= L < 2 ^ 61 ->
  be_enc 4 ((L / 2 ^ 29) mod 2 ^ 32) ++ be_enc 4 ((L * 8) mod 2 ^ 32) = be_enc 8 (L * 8).
Proof.
  intros HL. change 8%nat with (4 + 4)%nat. rewrite (be_enc_split 4 4 (L * 8)). f_equal.
  - change (256 ^ Z.of_nat 4) with (2 ^ 32). change (2 ^ 32) with (256 ^ Z.of_nat 4) at 1. rewrite be_enc_mod.
    f_equal. change (256 ^ Z.of_nat 4) with (2^32). lia.
  - change (2 ^ 32) with (256 ^ Z.of_nat 4). apply be_enc_mod.
Qed.

Theorem sha256_stream_from s0 pre chunks :
  0 <= pre -> pre mod 64 = 0 -> pre + Z.of_nat (length (concat chunks)) < 2 ^ 61 ->
  sha_finalize (fold_left sha_write chunks (sha_initialize_midstate pre s0)) = sha256_from s0 pre (concat chunks).
Proof.
  intros Hpre Hpre64 Hlen.
  pose proof (inv_fold s0 pre chunks _ [] (inv_from_init s0 pre)) as HI. cbn [app] in HI.
  set (c := fold_left sha_write chunks _) in *. set (msg := concat chunks) in *.
  assert (Hb : sbytes c = pre + Z.of_nat (length msg)) by (destruct HI as (W & _ & _ & _ & _ & H); exact H).
  unfold sha_finalize. rewrite Hb. set (L := pre + Z.of_nat (length msg)) in *.
  set (padz := (119 - L mod 64) mod 64).
  assert (Hpz : 0 <= padz < 64) by (unfold padz; apply Z.mod_pos_bound; lia).
  set (pad1 := firstn (Z.to_nat (1 + padz)) (128 :: zeros 63)).
  assert (Epad1 : pad1 = [128] ++ repeat 0 (Z.to_nat padz)).
  { unfold pad1. replace (Z.to_nat (1 + padz)) with (S (Z.to_nat padz)) by lia. cbn [firstn app]. f_equal.
    unfold zeros. apply firstn_repeat0. lia. }
  rewrite size_desc by lia.
  pose proof (inv_write _ _ _ _ (be_enc 8 (L * 8)) (inv_write _ _ _ _ pad1 HI)) as H2.
  (* message, padding and length make whole blocks *)
  apply inv_whole in H2.
  - rewrite H2, Epad1, <- !app_assoc. reflexivity.
  - rewrite !app_length, be_enc_length, Epad1, app_length, repeat_length. cbn [length].
    apply Nat2Z.inj. rewrite Nat2Z.inj_mod, !Nat2Z.inj_add, Z2Nat.id by lia. unfold padz, L. simpl Z.of_nat. lia.
Qed.

Theorem sha256_stream_correct chunks : Z.of_nat (length (concat chunks)) < 2 ^ 61 ->
  sha256_stream chunks = sha256 (concat chunks).
Proof. exact (sha256_stream_from sha_iv 0 chunks (Z.le_refl 0) eq_refl). Qed.
