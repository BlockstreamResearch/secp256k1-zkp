(* Sign-to-contract and anti-exfil (Model/S2c.v, property C15): the commitment functions characterised (ec_commit_Some_iff,
   verify_commit_exact), what a successful s2c signature has done (s2c_sign_ok_inv), and that the opening the signer commits to is the
   opening the signature exports. *)
From Coq Require Import ZArith List Bool Lia.
Require Import Spec.Params Spec.Field Spec.Curve Spec.Bytes Spec.Sha256.
Require Import Model.Base Model.Keys Model.Der Model.Ecdsa Model.S2c.
Require Import Proofs.Sha256Lemmas Proofs.AdaptorProofs.
Import ListNotations.
Local Open Scope Z_scope.

Lemma s2c_midstates_correct :
  tagged_midstate tag_s2c_point = midstate_s2c_point /\
  tagged_midstate tag_s2c_data = midstate_s2c_data.
Proof. split; vm_compute; reflexivity. Qed.

(* hashing from the two hard-coded midstates is the BIP-340 tagged hash *)
Lemma s2c_data_tagged : forall x, sha256_from midstate_s2c_data 64 x = tagged_hash tag_s2c_data x.
Proof. intros. rewrite tagged_hash_from_midstate, (proj2 s2c_midstates_correct). reflexivity. Qed.
Lemma s2c_point_tagged : forall x, sha256_from midstate_s2c_point 64 x = tagged_hash tag_s2c_point x.
Proof. intros. rewrite tagged_hash_from_midstate, (proj1 s2c_midstates_correct). reflexivity. Qed.

Section S2cProofs.
Variable P : Params.
Let n := cn P.
Notation G := (Curve.G P).
Notation pmul := (Curve.pmul P).
Notation padd := (Curve.padd P).

(* ec_commit and ec_commit_seckey: the tweak t = H(Q || data) must be < n; the tweaked point / scalar must not vanish *)
Lemma ec_commit_Some_iff : forall mid Q data C,
  ec_commit P mid Q data = Some C <->
  Q <> None /\
  let t := be_val (sha256_from mid 64 (ser33 Q ++ data)) in
  t < n /\ C = padd Q (pmul (t mod n) G) /\ C <> None.
Proof.
  intros. unfold ec_commit, ec_commit_tweak, pubkey_tweak_add_helper, sc_of_b32. fold n. cbv zeta.
  destruct Q as [q|]; cbn [is_inf]; [|split; [discriminate|intros [H _]; contradiction]].
  destruct (n <=? _) eqn:Eo; [split; [discriminate|intros (_ & H & _); lia]|]. apply Z.leb_gt in Eo.
  destruct (padd _ _) as [c|].
  - split; [intros [= <-]; repeat split; auto; discriminate|intros (_ & _ & -> & _); reflexivity].
  - split; [discriminate|intros (_ & _ & -> & H); contradiction].
Qed.

Lemma ec_commit_seckey_Some_iff : forall mid k Q data k',
  ec_commit_seckey P mid k Q data = Some k' <->
  Q <> None /\
  let t := be_val (sha256_from mid 64 (ser33 Q ++ data)) in
  t < n /\ k' = sc_add P k (t mod n) /\ k' <> 0.
Proof.
  intros. unfold ec_commit_seckey, ec_commit_tweak, seckey_tweak_add_helper, sc_of_b32. fold n. cbv beta iota zeta.
  destruct Q as [q|]; cbn [is_inf]; [|split; [discriminate|intros [H _]; contradiction]].
  destruct (n <=? _) eqn:Eo; cbn [negb andb]; [split; [discriminate|intros (_ & H & _); lia]|]. apply Z.leb_gt in Eo.
  destruct (_ =? 0) eqn:Ez; cbn [negb].
  - apply Z.eqb_eq in Ez. split; [discriminate|intros (_ & _ & -> & H); contradiction].
  - apply Z.eqb_neq in Ez. split; [intros [= <-]; repeat split; auto; discriminate|intros (_ & _ & -> & _); reflexivity].
Qed.

(* verify_commit accepts exactly when the opening loads as a point Q, the tweak t = H(Q || data) is < n,
   C = Q + t*G is not the point at infinity and r = C.x mod n *)
Lemma verify_commit_exact : forall sigobj data32 obj,
  ecdsa_s2c_verify_commit P sigobj data32 obj = [AInt 1] <->
  exists Q C,
    pk_load obj = Some Q /\ Q <> None /\
    let t := be_val (sha256_from midstate_s2c_point 64 (ser33 Q ++ data32)) in
    t < n /\ C = padd Q (pmul (t mod n) G) /\ C <> None /\
    be_val (firstn 32 sigobj) mod n = be_val (fe_to_b32 (px C)) mod n.
Proof.
  intros. unfold ecdsa_s2c_verify_commit, sc_of_b32. fold n. cbn [fst].
  destruct (pk_load obj) as [Q|]; [|split; [discriminate|intros (Q & C & [=] & _)]].
  destruct (ec_commit P midstate_s2c_point Q data32) as [C|] eqn:E.
  - apply ec_commit_Some_iff in E. destruct E as (HQ & Ht & HC & HCn). split.
    + destruct (_ =? _) eqn:Er; [|discriminate]. apply Z.eqb_eq in Er. intros _. exists Q, C. repeat split; assumption.
    + intros (Q' & C' & [= <-] & _ & _ & HC' & _ & H). rewrite <- HC in HC'. subst C'.
      apply Z.eqb_eq in H. rewrite H. reflexivity.
  - split; [discriminate|]. intros (Q' & C' & [= <-] & HQ & Ht & HC & HCn & _).
    rewrite (proj2 (ec_commit_Some_iff _ Q data32 C')) in E by auto. discriminate.
Qed.

(* host_verify: exactly verify_commit && ecdsa_verify, evaluated left to right with short-circuit *)
Lemma host_verify_exact : forall sigobj msg32 pkobj host_data32 obj,
  anti_exfil_host_verify P sigobj msg32 pkobj host_data32 obj =
    (if ret_of (ecdsa_s2c_verify_commit P sigobj host_data32 obj) =? 1
     then ecdsa_verify P sigobj msg32 pkobj
     else ecdsa_s2c_verify_commit P sigobj host_data32 obj)
  /\
  (ret_of (anti_exfil_host_verify P sigobj msg32 pkobj host_data32 obj) = 1 <->
   ret_of (ecdsa_s2c_verify_commit P sigobj host_data32 obj) = 1 /\
   ret_of (ecdsa_verify P sigobj msg32 pkobj) = 1).
Proof.
  intros. split; [reflexivity|]. unfold anti_exfil_host_verify. fold (ret_of (ecdsa_s2c_verify_commit P sigobj host_data32 obj)).
  destruct (ret_of (ecdsa_s2c_verify_commit P sigobj host_data32 obj) =? 1) eqn:E.
  - apply Z.eqb_eq in E. tauto.
  - apply Z.eqb_neq in E. tauto.
Qed.

(* a successful run found a valid nonce k, stored k*G as the opening, tweaked k and signed with the result *)
Lemma s2c_sign_loop_ok_inv : forall fuel counter msg32 seckey ndata data32 d m r s Q,
  s2c_sign_loop P fuel counter msg32 seckey ndata data32 d m = S2cOk r s Q ->
  exists c k k' recid,
    seckey_of_b32 P (nonce_rfc6979 P msg32 seckey None (Some ndata) c) = Some k /\
    Q = pmul k G /\ ec_commit_seckey P midstate_s2c_point k Q data32 = Some k' /\
    sig_sign P d m k' = (true, r, s, recid).
Proof.
  induction fuel; intros counter msg32 seckey ndata data32 d m r s Q; cbn [s2c_sign_loop]; [discriminate|].
  destruct (seckey_of_b32 P _) as [k|] eqn:Ek; [|apply IHfuel].
  destruct (ec_commit_seckey _ _ _ _ _) as [k'|] eqn:Ec; [|discriminate].
  destruct (sig_sign P d m k') as [[[ok r0] s0] recid] eqn:Es. destruct ok; [|discriminate].
  intros [= <- <- <-]. eauto 10.
Qed.

(* the two nonce derivations agree, for ALL byte strings msg32 (including values >= n), seckey (valid or not),
   rho, and every fuel: whenever the signing loop stores an opening, the signer-commit loop run on the host
   commitment to the same rho returns that opening.  (The signing loop result S2cRetryAfterTweak/S2cOutOfFuel is
   the model abstaining.) *)
Lemma loops_agree : forall fuel counter msg32 seckey rho d m,
  match s2c_sign_loop P fuel counter msg32 seckey (s2c_data_hash rho) rho d m with
  | S2cOk _ _ Q => signer_commit_loop P fuel counter msg32 seckey (sha256_from midstate_s2c_data 64 rho) = Some Q
  | S2cFail (Some Q) => signer_commit_loop P fuel counter msg32 seckey (sha256_from midstate_s2c_data 64 rho) = Some Q
  | S2cFail None => False
  | S2cRetryAfterTweak => True
  | S2cOutOfFuel => True
  end.
Proof.
  induction fuel; intros; cbn [s2c_sign_loop signer_commit_loop]; [exact I|].
  unfold s2c_data_hash at 1 2.
  destruct (seckey_of_b32 P (nonce_rfc6979 P msg32 seckey None (Some (sha256_from midstate_s2c_data 64 rho)) counter)) as [k|].
  - destruct (ec_commit_seckey P midstate_s2c_point k (pmul k G) rho) as [k'|]; [|reflexivity].
    destruct (sig_sign P d m k') as [[[ok r] s] recid]. destruct ok; [reflexivity|exact I].
  - apply IHfuel.
Qed.

Lemma s2c_sign_ok_inv : forall fuel msg32 seckey data32 w out,
  ecdsa_s2c_sign_fuel P fuel msg32 seckey data32 w = AInt 1 :: out ->
  exists d r s Q,
    seckey_of_b32 P seckey = Some d /\
    s2c_sign_loop P fuel 0 msg32 seckey (s2c_data_hash data32) data32 d (fst (sc_of_b32 P msg32)) = S2cOk r s Q /\
    out = ABytes (sig_obj r s) :: (if w then [ABytes (pk_obj Q)] else []).
Proof.
  intros fuel msg32 seckey data32 w out. unfold ecdsa_s2c_sign_fuel, s2c_sign_inner_fuel.
  destruct (seckey_of_b32 P seckey) as [d|];
    destruct (s2c_sign_loop _ _ _ _ _ _ _ _ _) as [r s Q|o| |] eqn:E; try discriminate.
  intros [= <-]. exists d, r, s, Q. auto.
Qed.

Lemma signer_commit_eq_sign_opening_fuel : forall fuel msg32 seckey rho sig opening,
  ecdsa_s2c_sign_fuel P fuel msg32 seckey rho true = [AInt 1; ABytes sig; ABytes opening] ->
  forall c, anti_exfil_host_commit rho = [AInt 1; ABytes c] ->
  anti_exfil_signer_commit_fuel P fuel msg32 seckey c = [AInt 1; ABytes opening].
Proof.
  intros fuel msg32 seckey rho sig opening H c [= <-].
  apply s2c_sign_ok_inv in H. destruct H as (d & r & s & Q & _ & L & [= _ ->]).
  pose proof (loops_agree fuel 0 msg32 seckey rho d (fst (sc_of_b32 P msg32))) as A. rewrite L in A.
  unfold anti_exfil_signer_commit_fuel. rewrite A. reflexivity.
Qed.
Lemma signer_commit_eq_sign_opening : forall msg32 seckey rho sig opening,
  ecdsa_s2c_sign P msg32 seckey rho true = [AInt 1; ABytes sig; ABytes opening] ->
  forall c, anti_exfil_host_commit rho = [AInt 1; ABytes c] ->
  anti_exfil_signer_commit P msg32 seckey c = [AInt 1; ABytes opening].
Proof. exact (signer_commit_eq_sign_opening_fuel sign_fuel). Qed.

(* the same statement for the protocol run as a whole: with rho' = rho both openings of a completed run are equal *)
Lemma protocol_openings_equal_fuel : forall fuel msg32 seckey pkobj rho c o1 sig o2 rest,
  anti_exfil_protocol_fuel P fuel msg32 seckey pkobj rho rho = ABytes c :: ABytes o1 :: AInt 1 :: ABytes sig :: ABytes o2 :: rest ->
  o1 = o2.
Proof.
  intros fuel msg32 seckey pkobj rho c o1 sig o2 rest. unfold anti_exfil_protocol_fuel, s2c_sign_inner_fuel.
  pose proof (loops_agree fuel 0 msg32 seckey rho
                (match seckey_of_b32 P seckey with Some d => d | None => 1 end) (fst (sc_of_b32 P msg32))) as L.
  destruct (s2c_sign_loop P fuel 0 msg32 seckey (s2c_data_hash rho) rho _ _) as [r s Q|o| |].
  - rewrite L. destruct (seckey_of_b32 P seckey); cbn [app]; intros H; inversion H. reflexivity.
  - destruct o as [Q|]; [|contradiction]. rewrite L. intros H; inversion H.
  - destruct (signer_commit_loop _ _ _ _ _ _); intros H; inversion H.
  - destruct (signer_commit_loop _ _ _ _ _ _); intros H; inversion H.
Qed.

Lemma s2c_sign_failure_zeroes_fuel : forall fuel msg32 seckey data32 w,
  ecdsa_s2c_sign_fuel P fuel msg32 seckey data32 w = abstain \/
  ecdsa_s2c_sign_fuel P fuel msg32 seckey data32 w = [AInt 0; ABytes (zeros 64)] \/
  exists r s, firstn 2 (ecdsa_s2c_sign_fuel P fuel msg32 seckey data32 w) = [AInt 1; ABytes (sig_obj r s)].
Proof.
  intros. unfold ecdsa_s2c_sign_fuel. destruct (s2c_sign_inner_fuel P fuel msg32 seckey data32); auto.
  right. right. exists r, s. reflexivity.
Qed.

Lemma s2c_sign_rejects_invalid_seckey_fuel : forall fuel msg32 seckey data32 w,
  seckey_of_b32 P seckey = None ->
  ecdsa_s2c_sign_fuel P fuel msg32 seckey data32 w = abstain \/ ecdsa_s2c_sign_fuel P fuel msg32 seckey data32 w = [AInt 0; ABytes (zeros 64)].
Proof.
  intros. unfold ecdsa_s2c_sign_fuel, s2c_sign_inner_fuel. rewrite H.
  destruct (s2c_sign_loop _ _ _ _ _ _ _ _ _); auto.
Qed.

(* anti_exfil_sign is s2c_sign without the opening *)
Lemma anti_exfil_sign_eq_fuel : forall fuel msg32 seckey rho sig opening,
  ecdsa_s2c_sign_fuel P fuel msg32 seckey rho true = [AInt 1; ABytes sig; ABytes opening] ->
  ecdsa_s2c_sign_fuel P fuel msg32 seckey rho false = [AInt 1; ABytes sig].
Proof.
  intros fuel msg32 seckey rho sig opening. unfold ecdsa_s2c_sign_fuel.
  destruct (s2c_sign_inner_fuel P fuel msg32 seckey rho); try discriminate. intros [= <- _]. reflexivity.
Qed.

(* opening_parse = ec_pubkey_parse on exactly 33 bytes *)
Lemma opening_parse_33 : forall tag xs, length xs = 32%nat ->
  s2c_opening_parse P (tag :: xs) =
  match eckey_pubkey_parse P (tag :: xs) with Some Q => [AInt 1; ABytes (pk_obj Q)] | None => [AInt 0] end.
Proof. intros tag xs Hl. unfold s2c_opening_parse. rewrite firstn_all2 by (simpl; lia). reflexivity. Qed.
End S2cProofs.
