(* Results do not depend on the context's history: the blinding invariant. *)
From Coq Require Import ZArith List Bool Lia.
Require Import Spec.Params Spec.Field Spec.Curve Spec.Bytes Spec.Sha256.
Require Import Model.Base Model.Context Proofs.MathFacts Proofs.GroupLemmas.
Import ListNotations.
Local Open Scope Z_scope.

Section ContextProofs.
Variable P : Params.
Variable cb : Z.
Hypothesis MF : MathFacts P.
Notation n := (cn P).
Notation G := (Curve.G P).
Notation pmul := (Curve.pmul P).
Notation padd := (Curve.padd P).
Notation D := (scalar_diff P cb).

(* ge_offset is the point that cancels the scalar offset, and it is never the point at infinity
   (gej_add_ge could not handle it) *)
Definition Inv (c : gen_ctx) : Prop :=
  0 <= soff c < n /\ goff c = pmul ((D - soff c) mod n) G /\ goff c <> None.

Lemma ecmult_gen_inv c k : Inv c -> 0 <= k < n -> ecmult_gen P cb c k = pmul k G.
Proof.
  intros [Hs [Hg _]] Hk. pose proof (n_pos P MF) as Hn. unfold ecmult_gen. rewrite Hg.
  rewrite <- (pmul_add P MF) by (auto using (oc_G P MF); apply Z.mod_pos_bound; lia).
  rewrite <- (pmul_mod_n P MF) by (pose proof (Z.mod_pos_bound (k + soff c - D) n Hn); pose proof (Z.mod_pos_bound (D - soff c) n Hn); lia).
  rewrite <- Zplus_mod. replace (k + soff c - D + (D - soff c)) with k by ring.
  rewrite (pmul_mod_n P MF) by lia. reflexivity.
Qed.

Lemma inv_reset : Inv (ctx_reset P cb).
Proof.
  pose proof (n_gt_1 P MF) as Hn. unfold Inv, ctx_reset; cbn [soff goff]. split; [apply Z.mod_pos_bound; lia|]. split.
  - assert (E : (D - (1 + D) mod n) mod n = mneg n 1).
    { unfold mneg. rewrite Zminus_mod_idemp_r. f_equal. ring. }
    rewrite E.
    rewrite (pmul_mneg P MF) by lia. reflexivity.
  - destruct (mf_G P MF) as [_ HG]. unfold Curve.G in *. simpl. discriminate.
Qed.

Lemma inv_randomize c seed : Inv c -> Inv (ctx_randomize P cb c seed).
Proof.
  intros HI. pose proof (n_pos P MF) as Hn. pose proof (n_gt_1 P MF) as H1n. unfold ctx_randomize.
  destruct (drbg_gen32 (drbg_init _)) as [o1 rng1]. destruct (drbg_gen32 rng1) as [o2 rng2].
  set (b0 := be_val o2 mod n). set (b := if b0 =? 0 then 1 else b0).
  assert (Hb : 0 < b < n).
  { unfold b. pose proof (Z.mod_pos_bound (be_val o2) n Hn). fold b0 in H. destruct (b0 =? 0) eqn:E; [lia|]. apply Z.eqb_neq in E. lia. }
  unfold Inv; cbn [soff goff]. split; [apply Z.mod_pos_bound; lia|].
  rewrite (ecmult_gen_inv c b HI) by lia. split.
  - f_equal. rewrite Zminus_mod_idemp_r.
    replace (D - ((- b) mod n + D)) with (0 - (- b) mod n) by ring.
    rewrite Zminus_mod_idemp_r. replace (0 - - b) with b by ring. symmetry. apply Z.mod_small. lia.
  - apply (pmul_G_nonzero P MF). lia.
Qed.

Lemma inv_step c o : Inv c -> Inv (ctx_step P cb c o).
Proof. intros H. destruct o; simpl; auto using inv_randomize, inv_reset. Qed.

Lemma inv_run_from ops c : Inv c -> Inv (fold_left (ctx_step P cb) ops c).
Proof. revert c. induction ops as [|o ops IH]; intros c H; cbn [fold_left]; auto using inv_step. Qed.

(* every reachable context computes the same fixed-base multiplication: k*G *)
Theorem ecmult_gen_independent_of_history ops k : 0 <= k < n ->
  ecmult_gen P cb (ctx_run P cb ops) k = pmul k G.
Proof. intros Hk. apply ecmult_gen_inv; [|exact Hk]. apply inv_run_from. apply inv_reset. Qed.
End ContextProofs.
