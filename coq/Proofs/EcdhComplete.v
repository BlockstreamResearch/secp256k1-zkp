(* ECDH symmetry under the group premises [MathFacts]: both parties of an exchange on multiples of G derive
   the same result, for every hash function. *)
From Coq Require Import ZArith List Bool Lia.
Require Import Spec.Params Spec.Field Spec.Curve Spec.Bytes Model.Base Model.Ecdh.
Require Import Proofs.MathFacts Proofs.GroupLemmas Proofs.EllswiftProofs.
Import ListNotations.
Local Open Scope Z_scope.

Section EcdhComplete.
Variable P : Params.
Hypothesis MF : MathFacts P.

(* A holds ka and receives B = kb*G; B holds kb and receives A = ka*G *)
Theorem ecdh_symmetric : forall (h : ecdh_hashfn) ka kb,
  1 <= be_val ka < cn P -> 1 <= be_val kb < cn P ->
  ecdh_pt P h (pmul P (be_val kb) (G P)) ka = ecdh_pt P h (pmul P (be_val ka) (G P)) kb.
Proof.
  intros h ka kb Ha Hb. rewrite !(ecdh_pt_spec P (n_pos P MF)) by lia. cbv zeta.
  rewrite !(proj2 (sk_ok_iff P _)) by assumption.
  rewrite <- !(pmul_mul P MF) by (try (apply oc_G; exact MF); lia).
  rewrite Z.mul_comm. reflexivity.
Qed.
End EcdhComplete.

Require Import Proofs.Toy.
Example ecdh_symmetric_toy : forall h ka kb, 1 <= be_val ka < 31 -> 1 <= be_val kb < 31 ->
  ecdh_pt toy h (pmul toy (be_val kb) (G toy)) ka = ecdh_pt toy h (pmul toy (be_val ka) (G toy)) kb.
Proof. exact (ecdh_symmetric toy toy_MathFacts). Qed.
