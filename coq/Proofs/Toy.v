(* A toy curve y^2 = x^3 + 7 over F_43 (prime group order 31, 31 < 43 < 62) on which every
   mathematical premise (MathFacts, InvFacts) is PROVED by exhaustive computation.  Used to show that
   theorems stated under those premises are not vacuous. *)
From Coq Require Import ZArith List Bool Lia Znumtheory.
Require Import Spec.Params Spec.Field Spec.Curve Proofs.MathFacts Proofs.ListLemmas Proofs.CurveLemmas.
Import ListNotations.
Local Open Scope Z_scope.

Definition toy : Params := {| cp := 43; cb := 7; cn := 31; cgx := 2; cgy := 12 |}.

Definition toy_points : list point := Eval vm_compute in
  None :: filter (on_curve toy) (flat_map (fun x => map (fun y => Some (x, y)) (zrange 43)) (zrange 43)).

Lemma toy_points_complete Q : oc toy Q -> In Q toy_points.
Proof.
  destruct Q as [[x y]|]; [|intros _; left; reflexivity].
  intros H. destruct (on_curve_range toy x y H) as [Rx Ry].
  assert (C : forallb (fun x => forallb (fun y => implb (on_curve toy (Some (x, y)))
                (existsb (point_eqb (Some (x, y))) toy_points)) (zrange 43)) (zrange 43) = true) by (vm_compute; reflexivity).
  pose proof (forallb_zrange _ _ (forallb_zrange _ _ C x Rx) y Ry) as C'. cbv beta in C'.
  unfold oc in H. rewrite H in C'. apply existsb_exists in C'. destruct C' as [Q' [HIn Heq]].
  apply point_eqb_eq in Heq. subst Q'. exact HIn.
Qed.

Lemma forall_points (f : point -> bool) : forallb f toy_points = true -> forall A, oc toy A -> f A = true.
Proof. intros H A HA. rewrite forallb_forall in H. apply H. apply toy_points_complete. exact HA. Qed.

(* the group is cyclic of order 31: i |-> i*G runs through all points, and adding points is adding indices mod 31.
   The group laws are read off this table instead of being swept over all pairs and triples of points. *)
Definition toy_mults : list point := Eval vm_compute in map (fun i => pmul toy i (G toy)) (zrange 31).
Definition tm (i : Z) : point := nth (Z.to_nat i) toy_mults None.

Lemma tm_complete A : oc toy A -> exists i, 0 <= i < 31 /\ A = tm i.
Proof.
  intros HA.
  assert (H : forallb (fun A => existsb (fun i => point_eqb A (tm i)) (zrange 31)) toy_points = true) by (vm_compute; reflexivity).
  apply (forall_points _ H), existsb_exists in HA. destruct HA as (i & Hi & E).
  exists i. split; [apply In_zrange, Hi|apply point_eqb_eq, E].
Qed.
Lemma tm_oc i : 0 <= i < 31 -> oc toy (tm i).
Proof. apply (forallb_zrange (fun i => on_curve toy (tm i)) 31). vm_compute. reflexivity. Qed.
Lemma tm_add i j : 0 <= i < 31 -> 0 <= j < 31 -> padd toy (tm i) (tm j) = tm ((i + j) mod 31).
Proof.
  intros Hi Hj. apply point_eqb_eq.
  apply (forallb_zrange (fun j => point_eqb (padd toy (tm i) (tm j)) (tm ((i + j) mod 31))) 31); [|exact Hj].
  apply (forallb_zrange (fun i => forallb (fun j => point_eqb (padd toy (tm i) (tm j)) (tm ((i + j) mod 31))) (zrange 31)) 31);
    [vm_compute; reflexivity|exact Hi].
Qed.

Lemma prime_by_trial q : 1 < q -> forallb (fun d => negb (q mod d =? 0)) (map (fun d => d + 2) (zrange (q - 2))) = true -> prime q.
Proof.
  intros Hq H. apply prime_alt. split; [assumption|]. intros d Hd [k Hk].
  rewrite forallb_forall in H. specialize (H d).
  assert (In d (map (fun d => d + 2) (zrange (q - 2)))).
  { apply in_map_iff. exists (d - 2). split; [lia|apply zrange_In; lia]. }
  specialize (H H0). subst q. rewrite Z.mod_mul in H by lia. discriminate.
Qed.
Lemma prime_43 : prime 43. Proof. apply prime_by_trial; [lia|vm_compute; reflexivity]. Qed.
Lemma prime_31 : prime 31. Proof. apply prime_by_trial; [lia|vm_compute; reflexivity]. Qed.

Theorem toy_MathFacts : MathFacts toy.
Proof.
  constructor.
  - exact prime_43.
  - exact prime_31.
  - reflexivity.
  - simpl; lia.
  - intros A B HA HB. destruct (tm_complete A HA) as (i & Hi & ->), (tm_complete B HB) as (j & Hj & ->).
    rewrite tm_add by assumption. apply tm_oc, Z.mod_pos_bound. lia.
  - intros A B C HA HB HC.
    destruct (tm_complete A HA) as (i & Hi & ->), (tm_complete B HB) as (j & Hj & ->), (tm_complete C HC) as (k & Hk & ->).
    rewrite !tm_add by (assumption || (apply Z.mod_pos_bound; lia)).
    rewrite Zplus_mod_idemp_l, Zplus_mod_idemp_r, Z.add_assoc. reflexivity.
  - intros A B HA HB. destruct (tm_complete A HA) as (i & Hi & ->), (tm_complete B HB) as (j & Hj & ->).
    rewrite !tm_add, Z.add_comm by assumption. reflexivity.
  - exact (forall_points (fun A => on_curve toy (pneg toy A)) ltac:(vm_compute; reflexivity)).
  - intros A HA. apply point_eqb_eq.
    apply (forall_points (fun A => point_eqb (padd toy A (pneg toy A)) None)); [vm_compute; reflexivity|assumption].
  - split; [reflexivity|discriminate].
  - vm_compute. reflexivity.
  - intros Q HQ. apply point_eqb_eq.
    apply (forall_points (fun A => point_eqb (pmul toy 31 A) None)); [vm_compute; reflexivity|assumption].
Qed.

Lemma minv_by_enum m : forallb (fun a => (minv m (a + 1) * (a + 1)) mod m =? 1) (zrange (m - 1)) = true ->
  forall a, 0 < a < m -> (minv m a * a) mod m = 1.
Proof.
  intros H a Ha. apply Z.eqb_eq. replace a with (a - 1 + 1) by lia. apply (forallb_zrange _ _ H). lia.
Qed.

Theorem toy_InvFacts : InvFacts toy.
Proof. constructor; apply minv_by_enum; vm_compute; reflexivity. Qed.
Print Assumptions toy_MathFacts.
