(* Spec/Bytes.v: the byte-range predicate as a Forall, be_val and be_enc as inverses of each other,
   zeros, slices of concatenations, bytes_eqb as equality. *)
From Coq Require Import ZArith List Bool Lia.
Require Import Spec.Bytes.
Require Export Proofs.ListLemmas.
Import ListNotations.
Local Open Scope Z_scope.

Definition bytes_okP (bs : bytes) : Prop := Forall (fun x => 0 <= x < 256) bs.
Lemma bytes_ok_iff bs : bytes_ok bs = true <-> bytes_okP bs.
Proof.
  unfold bytes_ok, bytes_okP. rewrite forallb_forall, Forall_forall.
  split; intros H x Hx; specialize (H x Hx); lia.
Qed.
Lemma okP_firstn k bs : bytes_okP bs -> bytes_okP (firstn k bs).
Proof. apply Forall_firstn. Qed.
Lemma okP_skipn k bs : bytes_okP bs -> bytes_okP (skipn k bs).
Proof. apply Forall_skipn. Qed.
Lemma okP_app a b : bytes_okP a -> bytes_okP b -> bytes_okP (a ++ b).
Proof. intros. apply Forall_app; auto. Qed.
Lemma slice_ok off len bs : bytes_okP bs -> bytes_okP (slice off len bs).
Proof. intros. apply okP_firstn, okP_skipn. assumption. Qed.
Lemma nth_okP k bs : bytes_okP bs -> 0 <= nth k bs 0 < 256.
Proof.
  intros H. destruct (nth_in_or_default k bs 0) as [Hin|Hd]; [|rewrite Hd; lia].
  unfold bytes_okP in H. rewrite Forall_forall in H. auto.
Qed.

Lemma be_fold_acc bs acc :
  fold_left (fun a b => a * 256 + b) bs acc = acc * 256 ^ Z.of_nat (length bs) + be_val bs.
Proof.
  unfold be_val. revert acc. induction bs as [|b bs IH]; intros acc; cbn [fold_left length].
  - simpl. lia.
  - rewrite IH. rewrite (IH (0 * 256 + b)). rewrite Nat2Z.inj_succ, Z.pow_succ_r by lia. ring.
Qed.
Lemma be_val_cons b bs : be_val (b :: bs) = b * 256 ^ Z.of_nat (length bs) + be_val bs.
Proof. unfold be_val at 1. cbn [fold_left]. rewrite be_fold_acc. ring. Qed.
Lemma be_val_app a b : be_val (a ++ b) = be_val a * 256 ^ Z.of_nat (length b) + be_val b.
Proof.
  induction a as [|x a IH]; cbn [app].
  - unfold be_val at 2. simpl. lia.
  - rewrite !be_val_cons, IH, app_length, Nat2Z.inj_add, Z.pow_add_r by lia. ring.
Qed.
Lemma be_val_nil : be_val [] = 0. Proof. reflexivity. Qed.
Lemma be_val_single b : be_val [b] = b. Proof. unfold be_val. simpl. lia. Qed.
Lemma be_val_bound bs : bytes_okP bs -> 0 <= be_val bs < 256 ^ Z.of_nat (length bs).
Proof.
  induction 1 as [|b bs Hb Hbs IH]; [rewrite be_val_nil; simpl; lia|].
  rewrite be_val_cons. cbn [length]. rewrite Nat2Z.inj_succ, Z.pow_succ_r by lia. nia.
Qed.

Lemma be_enc_length len x : length (be_enc len x) = len.
Proof. revert x. induction len; intros x; simpl; [reflexivity|]. rewrite app_length, IHlen. simpl. lia. Qed.
Lemma be_enc_ok len x : bytes_okP (be_enc len x).
Proof.
  revert x. induction len; intros x; simpl; [constructor|].
  apply Forall_app. split; [apply IHlen|]. constructor; [|constructor]. apply Z.mod_pos_bound. lia.
Qed.
Lemma be_val_enc_mod len x : be_val (be_enc len x) = x mod 256 ^ Z.of_nat len.
Proof.
  revert x. induction len; intros x.
  - simpl. rewrite be_val_nil, Z.mod_1_r. reflexivity.
  - cbn [be_enc]. rewrite be_val_app, be_val_single. cbn [length]. rewrite IHlen.
    change (256 ^ Z.of_nat 1) with 256.
    replace (Z.of_nat (S len)) with (Z.succ (Z.of_nat len)) by lia. rewrite Z.pow_succ_r by lia.
    assert (0 < 256 ^ Z.of_nat len) by (apply Z.pow_pos_nonneg; lia).
    rewrite Z.rem_mul_r by lia. lia.
Qed.
Lemma be_val_enc len x : 0 <= x < 256 ^ Z.of_nat len -> be_val (be_enc len x) = x.
Proof. intros Hx. rewrite be_val_enc_mod. apply Z.mod_small, Hx. Qed.
Lemma pow256_32 : 256 ^ Z.of_nat 32 = 2 ^ 256. Proof. reflexivity. Qed.
Lemma be_val_enc32 s : 0 <= s < 2 ^ 256 -> be_val (be_enc 32 s) = s.
Proof. intros H. apply be_val_enc. rewrite pow256_32. exact H. Qed.
Lemma be_enc_val bs : bytes_okP bs -> be_enc (length bs) (be_val bs) = bs.
Proof.
  induction bs as [|b bs IH] using rev_ind; intros H; [reflexivity|].
  apply Forall_app in H. destruct H as [H1 H2]. inversion H2; subst.
  rewrite app_length. cbn [length]. rewrite Nat.add_1_r. cbn [be_enc].
  rewrite be_val_app, be_val_single. change (256 ^ Z.of_nat (length [b])) with 256.
  replace ((be_val bs * 256 + b) / 256) with (be_val bs) by (apply Z.div_unique with b; lia).
  replace ((be_val bs * 256 + b) mod 256) with b by (apply Z.mod_unique with (be_val bs); lia).
  rewrite IH by assumption. reflexivity.
Qed.
Lemma be_enc_val_len k bs : bytes_okP bs -> length bs = k -> be_enc k (be_val bs) = bs.
Proof. intros H <-. apply be_enc_val, H. Qed.
Lemma be_enc_mod len x : be_enc len (x mod 256 ^ Z.of_nat len) = be_enc len x.
Proof.
  revert x. induction len as [|l IH]; intros x; [reflexivity|]. cbn [be_enc].
  assert (Hp : 0 < 256 ^ Z.of_nat l) by (apply Z.pow_pos_nonneg; lia).
  replace (Z.of_nat (S l)) with (Z.succ (Z.of_nat l)) by lia. rewrite Z.pow_succ_r by lia.
  rewrite Z.rem_mul_r by lia. set (k := (x / 256) mod 256 ^ Z.of_nat l).
  assert (E1 : (x mod 256 + 256 * k) mod 256 = x mod 256).
  { replace (x mod 256 + 256 * k) with (x mod 256 + k * 256) by ring. rewrite Z.mod_add by lia. apply Z.mod_mod. lia. }
  assert (E2 : (x mod 256 + 256 * k) / 256 = k).
  { replace (x mod 256 + 256 * k) with (x mod 256 + k * 256) by ring. rewrite Z.div_add by lia. rewrite (Z.div_small (x mod 256)) by (apply Z.mod_pos_bound; lia). lia. }
  rewrite E1, E2. unfold k. rewrite IH. reflexivity.
Qed.
Lemma be_enc_split a b x : be_enc (a + b) x = be_enc a (x / 256 ^ Z.of_nat b) ++ be_enc b x.
Proof.
  revert x. induction b as [|b IH]; intros x.
  - rewrite Nat.add_0_r. cbn [be_enc Z.of_nat]. rewrite Z.pow_0_r, Z.div_1_r, app_nil_r. reflexivity.
  - replace (a + S b)%nat with (S (a + b)) by lia. cbn [be_enc]. rewrite IH, <- app_assoc. f_equal.
    f_equal. replace (Z.of_nat (S b)) with (Z.succ (Z.of_nat b)) by lia. rewrite Z.pow_succ_r by lia.
    rewrite Z.div_div by (try lia; apply Z.pow_pos_nonneg; lia). reflexivity.
Qed.
Lemma firstn_be_enc k x (y : bytes) : firstn k (be_enc k x ++ y) = be_enc k x.
Proof. apply firstn_app_exact, be_enc_length. Qed.
Lemma skipn_be_enc k x (y : bytes) : skipn k (be_enc k x ++ y) = y.
Proof. apply skipn_app_exact, be_enc_length. Qed.

Lemma zeros_val k : be_val (zeros k) = 0.
Proof. unfold zeros. induction k; [reflexivity|]. cbn [repeat]. rewrite be_val_cons, IHk. lia. Qed.
Lemma zeros_length k : length (zeros k) = k. Proof. apply repeat_length. Qed.
Lemma be_enc_0 k : be_enc k 0 = zeros k.
Proof.
  induction k; [reflexivity|]. cbn [be_enc]. rewrite Z.div_0_l, Z.mod_0_l, IHk by lia.
  unfold zeros. change [0] with (repeat 0 1). rewrite <- repeat_app. f_equal. lia.
Qed.

Lemma slice_app off len (a t : bytes) : (off + len <= length a)%nat -> slice off len (a ++ t) = slice off len a.
Proof.
  intros H. unfold slice. rewrite skipn_app, firstn_app, skipn_length.
  replace (off - length a)%nat with O by lia. replace (len - (length a - off))%nat with O by lia.
  apply app_nil_r.
Qed.
Lemma slice_app_l (a b : bytes) k : length a = k -> slice 0 k (a ++ b) = a.
Proof. apply firstn_app_exact. Qed.
(* a field of a concatenation of fields, with its offset and length as numerals *)
Lemma slice_app_mid (a b c : bytes) off len : length a = off -> length b = len -> slice off len (a ++ b ++ c) = b.
Proof. intros Ha Hb. unfold slice. rewrite (skipn_app_exact a _ off Ha). apply firstn_app_exact, Hb. Qed.
Lemma slice_app_end (a b : bytes) off len : length a = off -> length b = len -> slice off len (a ++ b) = b.
Proof. intros <- <-. unfold slice. rewrite skipn_app_len. apply firstn_all. Qed.
Lemma slice_app_r (a b c : bytes) k : length a = k -> slice k (length b) (a ++ b ++ c) = b.
Proof. intros H. apply slice_app_mid; auto. Qed.
Lemma be_val_slice_bound off len bs : bytes_okP bs -> 0 <= be_val (slice off len bs) < 256 ^ Z.of_nat len.
Proof.
  intros H. pose proof (be_val_bound _ (slice_ok off len bs H)) as Hb.
  assert (256 ^ Z.of_nat (length (slice off len bs)) <= 256 ^ Z.of_nat len); [|lia].
  apply Z.pow_le_mono_r; [lia|]. unfold slice. pose proof (firstn_le_length len (skipn off bs)). lia.
Qed.
Lemma hd_slice (l : bytes) k n : hd 0 (slice k (S n) l) = nth k l 0.
Proof. unfold slice. revert l. induction k; intros l; destruct l; cbn [skipn nth]; auto. Qed.

Lemma bytes_eqb_eq a b : bytes_eqb a b = true <-> a = b.
Proof.
  revert b. induction a as [|x a IH]; intros [|y b]; simpl; split; intros H; try discriminate; auto.
  - apply andb_true_iff in H. destruct H as [H1 H2]. apply Z.eqb_eq in H1. apply IH in H2. congruence.
  - inversion H; subst. rewrite Z.eqb_refl. apply IH. reflexivity.
Qed.
Lemma bytes_eqb_refl a : bytes_eqb a a = true.
Proof. apply bytes_eqb_eq. reflexivity. Qed.
Lemma bytes_eqb_neq a b : a <> b -> bytes_eqb a b = false.
Proof. intros H. destruct (bytes_eqb a b) eqn:E; auto. apply bytes_eqb_eq in E. contradiction. Qed.

Lemma land_0x80 b : 0 <= b < 256 -> Z.land b 0x80 = if b <? 0x80 then 0 else 0x80.
Proof.
  intros Hb. apply Z.eqb_eq.
  apply (forallb_zrange (fun b => Z.land b 0x80 =? (if b <? 0x80 then 0 else 0x80)) 256); [vm_compute; reflexivity|exact Hb].
Qed.
