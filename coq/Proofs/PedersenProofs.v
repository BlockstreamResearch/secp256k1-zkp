(* Lemmas about Model/Pedersen.v (property C08).  All statements are about the executable model,
   for all inputs.  Group-law facts enter only through the explicit premise [MathFacts P]. *)
From Coq Require Import ZArith List Bool Lia.
Require Import Spec.Params Spec.Field Spec.Curve Spec.Bytes Spec.Sha256.
Require Import Model.Base Model.Pedersen.
Require Import Proofs.MathFacts Proofs.GroupLemmas Proofs.BytesLemmas Proofs.ModLemmas Proofs.CurveLemmas Proofs.BaseLemmas Proofs.Toy.
Import ListNotations.
Local Open Scope Z_scope.

(* clearing bit 0 of a byte *)
Lemma land254_inv b k : 0 <= b < 256 -> Z.land b 254 = 2 * k -> b = 2 * k \/ b = 2 * k + 1.
Proof.
  intros Hb H.
  assert (A : forallb (fun b => Z.land b 254 =? 2 * (b / 2)) (zrange 256) = true) by (vm_compute; reflexivity).
  pose proof (forallb_zrange _ _ A b Hb) as A'. apply Z.eqb_eq in A'.
  pose proof (Z.div_mod b 2). pose proof (Z.mod_pos_bound b 2). lia.
Qed.

Section PedersenProofs.
Variable P : Params.
Notation p := (cp P).
Notation n := (cn P).
Notation G := (Curve.G P).
Notation pmul := (Curve.pmul P).
Notation padd := (Curve.padd P).
Notation pneg := (Curve.pneg P).

Local Opaque pk_obj.

Lemma commit_pt_exact blind value gen R :
  pedersen_commit_pt P blind value gen = Some R <->
  (be_val blind < n /\ R = padd (pmul (be_val blind mod n) G) (pmul value (gen_load gen)) /\ R <> None).
Proof.
  unfold pedersen_commit_pt, pedersen_ecmult.
  destruct (Z.leb_spec n (be_val blind)) as [E|E];
    [rewrite (sc_of_b32_ov P _ E); split; [discriminate|lia]|rewrite (sc_of_b32_ok P _ E)].
  destruct (padd _ _) as [q|]; [|split; [discriminate|intros (_ & -> & H); congruence]].
  split; [intros [= <-]; repeat split; [assumption|discriminate]|intros (_ & -> & _); reflexivity].
Qed.

Lemma commit_exact blind value gen :
  pedersen_commit P blind value gen =
    if n <=? be_val blind then [AInt 0]
    else match padd (pmul (be_val blind mod n) G) (pmul value (gen_load gen)) with
         | None => [AInt 0]
         | R => [AInt 1; ABytes (pk_obj R)]
         end.
Proof.
  unfold pedersen_commit, pedersen_commit_pt, sc_of_b32, pedersen_ecmult.
  destruct (n <=? be_val blind); [reflexivity|]. destruct (padd _ _); reflexivity.
Qed.

Lemma commit_rejects_overflow blind value gen :
  n <= be_val blind -> pedersen_commit P blind value gen = [AInt 0].
Proof. intros H. rewrite commit_exact. apply Z.leb_le in H. rewrite H. reflexivity. Qed.

(* what the blind-sum helper computes when nothing overflows: sum of the first npositive minus the rest, mod n *)
Fixpoint signed_sum (i npos : nat) (blinds : list bytes) : Z :=
  match blinds with
  | [] => 0
  | b :: rest => (if Nat.leb npos i then - be_val b else be_val b) + signed_sum (S i) npos rest
  end.

Lemma blind_sum_loop_spec blinds : forall i npos acc,
  match blind_sum_loop P i npos acc blinds with
  | None => exists b, In b blinds /\ n <= be_val b
  | Some r => (forall b, In b blinds -> be_val b < n) /\ r mod n = (acc + signed_sum i npos blinds) mod n
  end.
Proof.
  induction blinds as [|b rest IH]; intros i npos acc; cbn [blind_sum_loop signed_sum].
  - rewrite Z.add_0_r. split; [intros b []|reflexivity].
  - destruct (Z.leb_spec n (be_val b)) as [E|E];
      [rewrite (sc_of_b32_ov P _ E); exists b; split; [now left|exact E]|rewrite (sc_of_b32_ok P _ E); cbv beta iota].
    specialize (IH (S i) npos (sc_add P acc (if Nat.leb npos i then sc_neg P (be_val b mod n) else be_val b mod n))).
    destruct (blind_sum_loop _ _ _ _ _) as [r|]; [|destruct IH as (b' & Hin & Hb'); exists b'; split; [now right|exact Hb']].
    destruct IH as [Hall ->]. split; [intros b' [<-|Hin]; auto|].
    unfold sc_add, sc_neg. destruct (Nat.leb npos i); eqm_solve n.
Qed.

Lemma blind_sum_rejects_overflow blinds npositive :
  (exists b, In b blinds /\ n <= be_val b) ->
  pedersen_blind_sum P blinds npositive = [AInt 0] \/ pedersen_blind_sum P blinds npositive = [AInt 0; AIll 1].
Proof.
  intros (b & Hin & Hb). unfold pedersen_blind_sum. destruct (_ <? _); [right; reflexivity|left].
  pose proof (blind_sum_loop_spec blinds 0 (Z.to_nat npositive) 0) as L.
  destruct (blind_sum_loop _ _ _ _ _); [destruct L as [L _]; specialize (L b Hin); lia|reflexivity].
Qed.

Lemma bgbs_loop_overflow l : forall i ni sum tmp,
  (exists v gb bf, In (v, gb, bf) l /\ (n <= be_val gb \/ n <= be_val bf)) ->
  bgbs_loop P i ni sum tmp l = None.
Proof.
  induction l as [|[[v gb] bf] rest IH]; intros i ni sum tmp (v0 & gb0 & bf0 & Hin & Hov); [destruct Hin|].
  cbn [bgbs_loop]. rewrite (surjective_pairing (sc_of_b32 P gb)), (surjective_pairing (sc_of_b32 P bf)), !sc_of_b32_snd.
  destruct (Z.leb_spec n (be_val gb)); [reflexivity|]. destruct (Z.leb_spec n (be_val bf)); [reflexivity|].
  destruct Hin as [[= -> -> ->]|Hin]; [lia|]. apply IH. eauto 6.
Qed.

Lemma bgbs_rejects_overflow values gblinds blinds n_total n_inputs :
  (exists v gb bf, In (v, gb, bf) (combine (combine values gblinds) blinds) /\ (n <= be_val gb \/ n <= be_val bf)) ->
  pedersen_blind_generator_blind_sum P values gblinds blinds n_total n_inputs = [AInt 0] \/
  pedersen_blind_generator_blind_sum P values gblinds blinds n_total n_inputs = [AInt 0; AIll 1].
Proof.
  intros H. unfold pedersen_blind_generator_blind_sum.
  destruct (n_total <=? n_inputs); [right; reflexivity|].
  rewrite bgbs_loop_overflow by exact H. left; reflexivity.
Qed.

(* ge_set_xquad: a candidate root that passes the square test gives a curve point, and so does its negation *)
Lemma commit_point_eq x flag : commit_point P x flag =
  Some (x, let y := fst (fe_sqrt P (curve_rhs P x)) in if flag then mneg p y else y).
Proof. reflexivity. Qed.

Lemma commit_point_on_curve x flag : 0 < p -> 0 <= x < p -> x_on_curve P x = true ->
  on_curve P (commit_point P x flag) = true.
Proof.
  intros Hp Hx H. rewrite commit_point_eq. cbv zeta.
  assert (Hy : on_curve P (Some (x, fst (fe_sqrt P (curve_rhs P x)))) = true).
  { unfold x_on_curve, fe_is_square, fe_sqrt, curve_rhs in *. cbn [fst snd] in *.
    apply Z.eqb_eq in H. rewrite Z.mod_mod in H by lia. apply on_curve_Some. auto using mpow_range. }
  destruct flag; [exact (on_curve_pneg P _ Hp Hy)|exact Hy].
Qed.

(* the accepting branch shared by the commitment and generator parsers *)
Lemma parsed_point_on_curve (c : bool) x flag o : 0 < p -> 0 <= x ->
  (if c && (x <? p) && x_on_curve P x then [AInt 1; ABytes (pk_obj (commit_point P x flag))] else [AInt 0])
    = [AInt 1; ABytes o] ->
  exists Q, o = pk_obj Q /\ Q <> None /\ on_curve P Q = true.
Proof.
  intros Hp Hx. destruct (_ && _ && _) eqn:E; [|discriminate]. intros [= <-].
  apply andb_true_iff in E as [[_ Ex%Z.ltb_lt]%andb_true_iff Eo].
  eexists. split; [reflexivity|]. split; [rewrite commit_point_eq; discriminate|].
  apply commit_point_on_curve; auto; lia.
Qed.

Lemma commitment_parse_exact input :
  pedersen_commitment_parse P input =
    if (Z.land (nth 0 input 0) 0xFE =? 8) && (be_val (firstn 32 (skipn 1 input)) <? p)
       && x_on_curve P (be_val (firstn 32 (skipn 1 input)))
    then [AInt 1; ABytes (pk_obj (commit_point P (be_val (firstn 32 (skipn 1 input))) (Z.odd (nth 0 input 0))))]
    else [AInt 0].
Proof.
  unfold pedersen_commitment_parse, fe_of_b32.
  destruct (Z.land _ 254 =? 8); cbn [andb negb]; [|reflexivity].
  destruct (_ <? p); cbn [andb negb]; [|reflexivity]. destruct (x_on_curve P _); reflexivity.
Qed.

Lemma generator_parse_exact input :
  generator_parse P input =
    if (Z.land (nth 0 input 0) 0xFE =? 10) && (be_val (firstn 32 (skipn 1 input)) <? p)
       && x_on_curve P (be_val (firstn 32 (skipn 1 input)))
    then let x := be_val (firstn 32 (skipn 1 input)) in
         let y := fst (fe_sqrt P (curve_rhs P x)) in
         [AInt 1; ABytes (pk_obj (Some (x, if Z.odd (nth 0 input 0) then mneg p y else y)))]
    else [AInt 0].
Proof.
  unfold generator_parse, fe_of_b32, x_on_curve, fe_is_square, ge_set_xquad.
  destruct (Z.land _ 254 =? 10); cbn [andb negb]; [|reflexivity].
  destruct (_ <? p); cbn [andb negb]; [|reflexivity].
  destruct (fe_sqrt P _) as [r []]; reflexivity.
Qed.

Lemma commitment_parse_on_curve (Hp0 : 0 < p) input o :
  0 <= be_val (firstn 32 (skipn 1 input)) ->
  pedersen_commitment_parse P input = [AInt 1; ABytes o] ->
  exists Q, o = pk_obj Q /\ Q <> None /\ on_curve P Q = true.
Proof. intros Hx H. rewrite commitment_parse_exact in H. exact (parsed_point_on_curve _ _ _ o Hp0 Hx H). Qed.

Lemma generator_parse_on_curve (Hp0 : 0 < p) input o :
  0 <= be_val (firstn 32 (skipn 1 input)) ->
  generator_parse P input = [AInt 1; ABytes o] ->
  exists Q, o = pk_obj Q /\ Q <> None /\ on_curve P Q = true.
Proof. intros Hx H. rewrite generator_parse_exact in H. exact (parsed_point_on_curve _ _ _ o Hp0 Hx H). Qed.

Hypothesis Hp : 3 < p.

Lemma fe_sqrt_range a : 0 <= fst (fe_sqrt P a) < p.
Proof. unfold fe_sqrt. simpl. apply mpow_range. lia. Qed.

Lemma curve_rhs_range x : 0 <= curve_rhs P x < p.
Proof. unfold curve_rhs. apply Z.mod_pos_bound. lia. Qed.

Section WithGroup.
Hypothesis MF : MathFacts P.
Notation oc := (oc P).

(* [MF] tally returns 1 exactly when the two sums are the same point, i.e. positives minus negatives is infinity *)
Lemma tally_exact pos neg :
  Forall oc (map (commit_load P) pos) -> Forall oc (map (commit_load P) neg) ->
  (pedersen_verify_tally P pos neg = [AInt 1] <->
   psum P (map (commit_load P) pos) = psum P (map (commit_load P) neg)).
Proof.
  intros Hp' Hn'. unfold pedersen_verify_tally.
  set (Ps := map (commit_load P) pos) in *. set (Ns := map (commit_load P) neg) in *.
  assert (HN : oc (psum P Ns)) by (apply psum_oc; auto).
  assert (HP : oc (psum P Ps)) by (apply psum_oc; auto).
  change (fold_left padd Ns None) with (psum P Ns).
  rewrite fold_padd_sum by (auto; apply (oc_neg P MF); auto).
  split.
  - intros H.
    destruct (padd (pneg (psum P Ns)) (psum P Ps)) eqn:E; simpl in H; [discriminate|].
    apply (inv_unique P MF) in E; auto; [|apply (oc_neg P MF); auto].
    rewrite E. apply (pneg_involutive P MF); auto.
  - intros H. rewrite H.
    rewrite (padd_comm P MF) by (auto; apply (oc_neg P MF); auto).
    rewrite (padd_neg P MF) by auto. reflexivity.
Qed.

(* [MF] blinded generation = unblinded generation + blind*G, provided the two Shallue-van de Woestijne
   points are on the curve (that premise is a number-theoretic fact about the map, not about the code) *)
Lemma generate_blinded_eq_partial key32 blind32 :
  let t1 := be_val (sha256 (prefix_1st ++ key32)) mod p in
  let t2 := be_val (sha256 (prefix_2nd ++ key32)) mod p in
  oc (shallue_van_de_woestijne P t1) -> oc (shallue_van_de_woestijne P t2) ->
  snd (generator_generate_internal P key32 (Some blind32)) =
    padd (pmul (be_val blind32 mod n) G) (snd (generator_generate_internal P key32 None)).
Proof.
  intros t1 t2 H1 H2. unfold generator_generate_internal, sc_of_b32. cbn [fst snd].
  fold t1 t2. rewrite padd_None_l.
  apply (padd_assoc P MF); auto.
  apply (oc_pmul P MF). apply (oc_G P MF).
Qed.
End WithGroup.

Lemma generate_blinded_ret key32 blind32 :
  fst (generator_generate_internal P key32 (Some blind32)) =
    negb (n <=? be_val blind32) && fst (generator_generate_internal P key32 None).
Proof.
  unfold generator_generate_internal, sc_of_b32. cbn [fst snd].
  destruct (n <=? be_val blind32); cbn [negb andb]; reflexivity.
Qed.
End PedersenProofs.

(* non-vacuity on the toy curve (p = 43, n = 31), where MathFacts is a theorem:
   every point survives a serialise/parse round trip of the commitment encoding, and tally accepts C - C *)
Definition toy_ser_commit (Q : point) : bytes :=
  match Q with Some (x, y) => (if fe_is_square toy y then 8 else 9) :: be_enc 32 x | None => [] end.
Example toy_commitment_roundtrip :
  forallb (fun Q => match Q with
                    | None => true
                    | Some _ => match pedersen_commitment_parse toy (toy_ser_commit Q) with
                                | [AInt 1; ABytes o] => bytes_eqb o (pk_obj Q)
                                | _ => false end
                    end) toy_points = true.
Proof. vm_compute. reflexivity. Qed.
Example toy_tally :
  pedersen_verify_tally toy [pk_obj (pmul toy 5 (G toy))] [pk_obj (pmul toy 5 (G toy))] = [AInt 1] /\
  pedersen_verify_tally toy [pk_obj (pmul toy 5 (G toy))] [pk_obj (pmul toy 6 (G toy))] = [AInt 0].
Proof. split; vm_compute; reflexivity. Qed.
