(* Completeness of sign-to-contract under the group premises: the signature produced by s2c_sign commits,
   for verify_commit, to the data it was made with (property C15). *)
From Coq Require Import ZArith List Bool Lia.
Require Import Spec.Params Spec.Field Spec.Curve Spec.Bytes Spec.Sha256.
Require Import Model.Base Model.Der Model.Ecdsa Model.S2c.
Require Import Proofs.MathFacts Proofs.GroupLemmas Proofs.BytesLemmas Proofs.CurveLemmas Proofs.BaseLemmas.
Require Import Proofs.EcdsaProofs Proofs.EcdsaComplete Proofs.S2cProofs.
Import ListNotations.
Local Open Scope Z_scope.

Section S2cComplete.
Variable P : Params.
Hypothesis MF : MathFacts P.
Notation n := (cn P).
Notation p := (cp P).
Notation G := (Curve.G P).
Notation pmul := (Curve.pmul P).
Notation padd := (Curve.padd P).

(* tweaking the secret nonce and tweaking the public nonce commute: the commitment to k*G is k'*G *)
Lemma ec_commit_seckey_point : forall mid k data k',
  0 <= k -> ec_commit_seckey P mid k (pmul k G) data = Some k' ->
  0 < k' < n /\ (pmul k' G <> None -> ec_commit P mid (pmul k G) data = Some (pmul k' G)).
Proof.
  intros mid k data k' Hk H. pose proof (n_pos P MF) as Hn.
  apply ec_commit_seckey_Some_iff in H. destruct H as (HQ & Ht & -> & Hk').
  set (t := be_val _) in *. pose proof (Z.mod_pos_bound t n Hn) as Htn.
  split; [pose proof (Z.mod_pos_bound (k + t mod n) n Hn); unfold sc_add, madd in *; lia|].
  intros HC. apply ec_commit_Some_iff. fold t. unfold sc_add in *. rewrite <- (pmul_madd P MF) by lia. auto.
Qed.

(* loop level: the opening Q and the signature's r satisfy the commitment equation *)
Lemma s2c_loop_commits : forall fuel counter msg32 seckey ndata data32 d m r s Q,
  s2c_sign_loop P fuel counter msg32 seckey ndata data32 d m = S2cOk r s Q ->
  exists x y, ec_commit P midstate_s2c_point Q data32 = Some (Some (x, y)) /\ r = x mod n /\ oc P (Some (x, y)).
Proof.
  intros fuel counter msg32 seckey ndata data32 d m r s Q H.
  apply s2c_sign_loop_ok_inv in H. destruct H as (c & k & k' & recid & Ek & -> & Ec & Es).
  apply seckey_of_b32_range in Ek. apply ec_commit_seckey_point in Ec; [|lia]. destruct Ec as [_ Ec].
  unfold sig_sign in Es. destruct (pmul k' G) as [[x y]|] eqn:EkG; [|discriminate]. injection Es as _ <- _ _.
  exists x, y. split; [apply Ec; discriminate|]. split; [reflexivity|].
  unfold oc. rewrite <- EkG. apply (oc_pmul P MF), (oc_G P MF).
Qed.

Hypothesis Hp256 : p <= 2 ^ 256.
Hypothesis Hnp : n < p.

(* API level: the triple (signature, data, opening) returned by s2c_sign passes verify_commit, provided the opening
   object loads back as the point it was saved from (true for every curve point with x <> 0) *)
Lemma s2c_sign_commit_verifies_fuel : forall fuel msg32 seckey data32 sig opening,
  ecdsa_s2c_sign_fuel P fuel msg32 seckey data32 true = [AInt 1; ABytes sig; ABytes opening] ->
  exists Q, opening = pk_obj Q /\
    (pk_load opening = Some Q -> ecdsa_s2c_verify_commit P sig data32 opening = [AInt 1]).
Proof using MF Hp256 Hnp.
  intros fuel msg32 seckey data32 sig opening H. pose proof (n_pos P MF) as Hn.
  apply s2c_sign_ok_inv in H. destruct H as (d & r & s & Q & _ & L & [= -> ->]).
  exists Q. split; [reflexivity|]. intros HL.
  apply s2c_loop_commits in L. destruct L as (x & y & EC & -> & Hoc).
  apply ec_commit_Some_iff in EC. destruct EC as (HQ & Ht & HC & HCn).
  apply verify_commit_exact. exists Q, (Some (x, y)). repeat split; try assumption. cbn [px].
  pose proof (on_curve_range P x y Hoc) as [Hx _]. pose proof (Z.mod_pos_bound x n Hn).
  unfold sig_obj, sc_to_b32, fe_to_b32. rewrite firstn_be_enc, !be_val_enc32 by lia.
  apply Z.mod_mod. lia.
Qed.

(* the signature itself is a valid ECDSA signature for the key d*G (the ECDSA equation holds for the tweaked nonce) *)
Hypothesis IF : InvFacts P.
Hypothesis Hp2n : p < 2 * n.
Hypothesis HGr : inr P G.
Lemma s2c_loop_sig_valid : forall fuel counter msg32 seckey ndata data32 d m r s Q,
  0 < d < n -> 0 <= m < n ->
  s2c_sign_loop P fuel counter msg32 seckey ndata data32 d m = S2cOk r s Q ->
  sig_verify P r s (pmul d G) m = true.
Proof using MF Hnp IF Hp2n HGr.
  intros fuel counter msg32 seckey ndata data32 d m r s Q Hd Hm H.
  apply s2c_sign_loop_ok_inv in H. destruct H as (c & k & k' & recid & Ek & -> & Ec & Es).
  apply seckey_of_b32_range in Ek. apply ec_commit_seckey_point in Ec; [|lia].
  exact (sign_verifies P MF IF Hnp Hp2n HGr d m k' r s recid Hd Hm (proj1 Ec) Es).
Qed.
End S2cComplete.
