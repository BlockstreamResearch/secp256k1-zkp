(* Completeness of ECDSA: what sig_sign produces, sig_verify accepts (under the group premises). *)
From Coq Require Import ZArith List Bool Lia Morphisms Setoid.
Require Import Spec.Params Spec.Field Spec.Curve Spec.Bytes.
Require Import Model.Base Model.Der Model.Ecdsa Proofs.MathFacts Proofs.GroupLemmas Proofs.ModLemmas Proofs.BaseLemmas Proofs.EcdsaProofs.
Import ListNotations.
Local Open Scope Z_scope.

Section Complete.
Variable P : Params.
Hypothesis MF : MathFacts P.
Hypothesis IF : InvFacts P.
Notation n := (cn P).
Notation p := (cp P).
Notation G := (Curve.G P).
Notation pmul := (Curve.pmul P).
Notation padd := (Curve.padd P).
Notation pneg := (Curve.pneg P).
Hypothesis Hnp : n < p.
Hypothesis Hp2n : p < 2 * n.
Hypothesis HGr : inr P G.

Local Instance eqm_equiv : Equivalence (eqm n) := eqm_setoid n.
Local Instance add_eqm : Proper (eqm n ==> eqm n ==> eqm n) Z.add := Zplus_eqm n.
Local Instance mul_eqm : Proper (eqm n ==> eqm n ==> eqm n) Z.mul := Zmult_eqm n.
Local Instance opp_eqm : Proper (eqm n ==> eqm n) Z.opp := Zopp_eqm n.

(* the ECDSA equation: if k*s = r*d + m modulo n, the verifier reconstructs k*G under the key d*G *)
Lemma ecdsa_equation d m k r s : 0 <= d -> 0 <= k -> 0 < s < n ->
  eqm n (k * s) (r * d + m) -> verify_point P r s (pmul d G) m = pmul k G.
Proof.
  intros Hd Hk Hs E. pose proof (n_pos P MF) as Hn. unfold verify_point.
  assert (Hu : forall a, 0 <= sc_mul P (sc_inv P s) a) by (intros a; apply sc_mul_range, Hn).
  pose proof (oc_G P MF) as HocG.
  rewrite <- (pmul_mul P MF), <- (pmul_add P MF) by (auto; pose proof (Hu r); nia).
  apply (pmul_eqm P MF); [pose proof (Hu r); pose proof (Hu m); nia|exact Hk|].
  transitivity (sc_inv P s * (r * d + m)); [unfold sc_mul; eqm_solve n|]. rewrite <- E.
  transitivity (k * (sc_inv P s * s)); [eqm_solve n|]. rewrite (sc_inv_l P IF s Hs). eqm_solve n.
Qed.

Theorem sign_verifies d m k r s recid :
  0 < d < n -> 0 <= m < n -> 0 < k < n ->
  sig_sign P d m k = (true, r, s, recid) ->
  sig_verify P r s (pmul d G) m = true.
Proof.
  intros Hd Hm Hk. pose proof (n_pos P MF) as Hn. unfold sig_sign.
  destruct (pmul k G) as [[x y]|] eqn:EkG; [|discriminate].
  set (r0 := x mod n). set (s0 := sc_mul P (sc_inv P k) (sc_add P (sc_mul P r0 d) m)).
  intros E. injection E as Eok <- Es _. apply andb_true_iff in Eok. rewrite Es in Eok. destruct Eok as [Er0 Es0].
  apply negb_true_iff, Z.eqb_neq in Er0, Es0.
  assert (Hr0 : 0 <= r0 < n) by (apply Z.mod_pos_bound; lia).
  pose proof (sc_mul_range P Hn (sc_inv P k) (sc_add P (sc_mul P r0 d) m)) as Hs0. fold s0 in Hs0.
  assert (Eks0 : eqm n (k * s0) (r0 * d + m)).
  { transitivity ((sc_inv P k * k) * (r0 * d + m)); [unfold s0, sc_mul, sc_add; eqm_solve n|].
    rewrite (sc_inv_l P IF k Hk). eqm_solve n. }
  apply (sig_verify_exact P); try assumption; try lia.
  { apply pmul_inr; assumption || lia. }
  split; [assumption|split; [assumption|]].
  destruct (sc_is_high P s0); subst s.
  - (* s = -s0: the equation holds for -k, and the verifier reconstructs -kG, which has the same x *)
    pose proof (sc_neg_range P Hn s0) as Hs.
    rewrite (ecdsa_equation d m (mneg n k)); [|lia|apply mneg_range; lia|lia|].
    + rewrite (pmul_mneg P MF) by lia. rewrite EkG. exists x, (mneg p y). split; reflexivity.
    + rewrite <- Eks0. unfold sc_neg. eqm_solve n.
  - rewrite (ecdsa_equation d m k) by (assumption || lia). rewrite EkG. exists x, y. split; reflexivity.
Qed.
End Complete.
