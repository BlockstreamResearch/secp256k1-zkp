(* Lemmas about Model/Whitelist.v (property C16): the serialized form, what verification checks, which
   secrets signing refuses, and (under MathFacts) sign => verify. *)
From Coq Require Import ZArith List Bool Lia.
Require Import Spec.Params Spec.Field Spec.Curve Spec.Bytes Spec.Sha256.
Require Import Model.Base Model.Ecdsa Model.Borromean Model.Whitelist.
Require Import Proofs.MathFacts Proofs.GroupLemmas Proofs.BytesLemmas Proofs.BaseLemmas Proofs.BorromeanProofs Proofs.SurjectionProofs.
Import ListNotations.
Local Open Scope Z_scope.

Lemma wl_parse_Some_iff : forall input s,
  wl_parse input = Some s <->
  input = ws_n s :: ws_data s /\ ws_n s <= 255 /\ Z.of_nat (length (ws_data s)) = 32 * (ws_n s + 1).
Proof.
  intros [| nk rest] s; unfold wl_parse, wsig_len, WL_MAX_KEYS.
  - split; [discriminate | intros (H & _); discriminate].
  - change (length (nk :: rest)) with (S (length rest)).
    destruct (Z.ltb_spec 255 nk); cbn [orb].
    { split; [discriminate | intros (H0 & H1 & _); inversion H0; lia]. }
    destruct (Z.eqb_spec (Z.of_nat (S (length rest))) (1 + 32 * (nk + 1))); cbn [negb].
    + split; [intros E; inversion E; cbn [ws_n ws_data]; repeat split; lia |].
      intros (H0 & _). inversion H0. destruct s; reflexivity.
    + split; [discriminate | intros (H0 & _ & H2); inversion H0; subst; lia].
Qed.

(* the i-th ring scalar of the signature, as stored: data[32+32i .. 64+32i) *)
Definition sig_scalar_bytes (s : wsig) (i : nat) : bytes := firstn 32 (skipn (32 + 32 * i)%nat (ws_data s)).

Section Verify.
Variable P : Params.
Notation G := (Curve.G P).
Notation pmul := (Curve.pmul P).

Lemma wl_load_scalars_spec : forall chunks,
  wl_load_scalars P chunks =
  if forallb (fun c => (be_val c <? cn P) && negb (be_val c mod cn P =? 0)) chunks
  then Some (map (fun c => be_val c mod cn P) chunks) else None.
Proof.
  induction chunks as [| x r IH]; [reflexivity |]. cbn [wl_load_scalars forallb map]. unfold sc_of_b32.
  rewrite IH, Z.leb_antisym. destruct (be_val x <? cn P); cbn [negb andb orb]; [| reflexivity].
  destruct (be_val x mod cn P =? 0); cbn [negb andb]; [reflexivity |].
  destruct (forallb _ r); reflexivity.
Qed.

(* verification returns 1 exactly when the key counts are in range and agree, every stored scalar is < n and
   not 0 mod n, and the Borromean ring signature over the keys online_i + H(offline_i + W)(offline_i + W) holds *)
Lemma verify_gen_iff : forall guard s online offline n_keys sub,
  verify_gen P guard s online offline n_keys sub = true <->
  ((guard = true -> ws_n s <> 0) /\ ws_n s <= 255 /\ ws_n s = n_keys /\
   (forall i, (i < Z.to_nat (ws_n s))%nat ->
      be_val (sig_scalar_bytes s i) < cn P /\ be_val (sig_scalar_bytes s i) mod cn P <> 0) /\
   borromean_verify P (firstn 32 (ws_data s))
     (map (fun c => be_val c mod cn P) (wl_chunks (ws_data s) (Z.to_nat (ws_n s))))
     (compute_keys P online offline (Z.to_nat (ws_n s)) sub) [Z.to_nat (ws_n s)] 1
     (compute_message online offline (Z.to_nat (ws_n s)) sub) = true).
Proof.
  intros g s on off nk sub. unfold verify_gen, verify_prelude_rejects, WL_MAX_KEYS. rewrite wl_load_scalars_spec.
  assert (F : forallb (fun c => (be_val c <? cn P) && negb (be_val c mod cn P =? 0))
                      (wl_chunks (ws_data s) (Z.to_nat (ws_n s))) = true <->
              forall i, (i < Z.to_nat (ws_n s))%nat ->
                be_val (sig_scalar_bytes s i) < cn P /\ be_val (sig_scalar_bytes s i) mod cn P <> 0).
  { unfold wl_chunks. rewrite forallb_chunks. split; intros H i Hi; specialize (H i Hi).
    - apply andb_true_iff in H. destruct H as [H1 H2]. apply Z.ltb_lt in H1. apply negb_true_iff, Z.eqb_neq in H2. auto.
    - destruct H. apply andb_true_iff. split; [apply Z.ltb_lt; auto | apply negb_true_iff, Z.eqb_neq; auto]. }
  destruct (Z.ltb_spec 255 (ws_n s)).
  { rewrite orb_true_r. split; [discriminate | intros (_ & X & _); lia]. }
  destruct (Z.eqb_spec (ws_n s) nk); cbn [negb].
  2:{ rewrite orb_true_r. split; [discriminate | intros (_ & _ & X & _); contradiction]. }
  rewrite !orb_false_r.
  destruct (g && (ws_n s =? 0)) eqn:E0.
  { apply andb_true_iff in E0. destruct E0 as [-> E0]. apply Z.eqb_eq in E0.
    split; [discriminate | intros (X & _); exfalso; apply X; auto]. }
  destruct (forallb _ _).
  - split; [intros Hv; repeat split; auto; try apply F; auto | intros (_ & _ & _ & _ & D); exact D].
    intros -> Z0. rewrite Z0 in E0. discriminate.
  - split; [discriminate | intros (_ & _ & _ & D & _)]. apply F in D. discriminate.
Qed.

(* the same with the stored scalars read as numbers, for data made of non-negative values (bytes) *)
Lemma verify_gen_iff_nonneg : forall guard s online offline n_keys sub,
  0 < cn P -> (forall i, 0 <= be_val (sig_scalar_bytes s i)) ->
  (verify_gen P guard s online offline n_keys sub = true <->
   ((guard = true -> ws_n s <> 0) /\ ws_n s <= 255 /\ ws_n s = n_keys /\
    (forall i, (i < Z.to_nat (ws_n s))%nat -> 0 < be_val (sig_scalar_bytes s i) < cn P) /\
    borromean_verify P (firstn 32 (ws_data s)) (map be_val (wl_chunks (ws_data s) (Z.to_nat (ws_n s))))
      (compute_keys P online offline (Z.to_nat (ws_n s)) sub) [Z.to_nat (ws_n s)] 1
      (compute_message online offline (Z.to_nat (ws_n s)) sub) = true)).
Proof.
  intros g s on off nk sub Hn Hnonneg. rewrite verify_gen_iff.
  assert (S : forall i, be_val (sig_scalar_bytes s i) < cn P /\ be_val (sig_scalar_bytes s i) mod cn P <> 0 <->
                        0 < be_val (sig_scalar_bytes s i) < cn P).
  { intros i. specialize (Hnonneg i). split; intros H; [| rewrite Z.mod_small; lia].
    destruct (Z.eq_dec (be_val (sig_scalar_bytes s i)) 0) as [E | E]; [rewrite E, Zmod_0_l in H; tauto | lia]. }
  assert (M : (forall i, (i < Z.to_nat (ws_n s))%nat -> 0 < be_val (sig_scalar_bytes s i) < cn P) ->
              map (fun c => be_val c mod cn P) (wl_chunks (ws_data s) (Z.to_nat (ws_n s))) =
              map be_val (wl_chunks (ws_data s) (Z.to_nat (ws_n s)))).
  { intros H. unfold wl_chunks. rewrite !map_map. apply map_ext_in. intros i Hi. apply in_seq in Hi.
    apply Z.mod_small. specialize (H i). unfold sig_scalar_bytes in H. lia. }
  split; intros (A & B & C & D & E).
  - assert (D' : forall i, (i < Z.to_nat (ws_n s))%nat -> 0 < be_val (sig_scalar_bytes s i) < cn P)
      by (intros i Hi; apply S, D, Hi).
    rewrite (M D') in E. auto.
  - rewrite <- (M D) in E. split; [exact A | split; [exact B | split; [exact C | split; [| exact E]]]].
    intros i Hi. apply S, D, Hi.
Qed.

Lemma tweaked_privkey_Some_iff : forall online_key summed_key sec,
  compute_tweaked_privkey P online_key summed_key = Some sec <->
  exists t, be_val summed_key < cn P /\ be_val summed_key mod cn P <> 0 /\
            be_val online_key < cn P /\ be_val online_key mod cn P <> 0 /\
            hash_pubkey P (pmul (be_val summed_key mod cn P) G) = Some t /\
            sec = sc_add P (sc_mul P (be_val summed_key mod cn P) t) (be_val online_key mod cn P).
Proof.
  intros ok sk sec. unfold compute_tweaked_privkey, sc_of_b32.
  destruct (Z.leb_spec (cn P) (be_val sk)); cbn [orb].
  { split; [discriminate | intros (t & H1 & _); lia]. }
  destruct (Z.eqb_spec (be_val sk mod cn P) 0).
  { split; [discriminate | intros (t & _ & H1 & _); contradiction]. }
  destruct (hash_pubkey P (pmul (be_val sk mod cn P) G)) as [t |].
  2:{ split; [discriminate | intros (t & _ & _ & _ & _ & H1 & _); discriminate]. }
  destruct (Z.leb_spec (cn P) (be_val ok)); cbn [orb].
  { split; [discriminate | intros (t' & _ & _ & H1 & _); lia]. }
  destruct (Z.eqb_spec (be_val ok mod cn P) 0).
  { split; [discriminate | intros (t' & _ & _ & _ & H1 & _); contradiction]. }
  split; [intros E; inversion E; exists t; auto 8 | intros (t' & _ & _ & _ & _ & E & ->); inversion E; reflexivity].
Qed.
End Verify.

(* F1, the as-coded function accepts an empty ring.  Witness: W = G, signature object n_keys = 0,
   e0 = SHA256(SHA256(ser33(G))); no group operation is involved, only two SHA-256 computations *)
Definition f1_W : bytes := pk_obj (Curve.G secp256k1).
Definition f1_sig : wsig := mkWsig 0 (sha256 (sha256 (ser33 (Curve.G secp256k1)))).

Lemma as_coded_accepts_empty_ring_witness :
  whitelist_verify_as_coded secp256k1 f1_sig [] [] 0 f1_W = true /\
  wl_parse (0 :: ws_data f1_sig) = Some f1_sig /\ length (0 :: ws_data f1_sig) = 33%nat.
Proof. vm_compute. repeat split. Qed.

Example wl_parse_example : exists s, wl_parse (1 :: repeat 9 64) = Some s /\ ws_n s = 1.
Proof. eexists. split; vm_compute; reflexivity. Qed.

Section Complete.
Variable P : Params.
Hypothesis MF : MathFacts P.
Hypothesis Hn256 : cn P < 2 ^ 256.
Notation G := (Curve.G P).
Notation pmul := (Curve.pmul P).
Notation sc_ok := (fun s : Z => 0 < s < cn P).

Lemma sc_ok_nz : forall l, Forall sc_ok l -> forallb nz l = true.
Proof.
  induction 1; [reflexivity |]. cbn [forallb]. rewrite IHForall, andb_true_r.
  apply negb_true_iff, Z.eqb_neq. lia.
Qed.

Lemma gen_s_spec : forall idxs count msg key ss, gen_s P idxs count msg key = Some ss ->
  length ss = length idxs /\ Forall sc_ok ss.
Proof.
  induction idxs as [| i rest IH]; cbn [gen_s]; intros count msg key ss H.
  - inversion H; subst. split; [reflexivity | constructor].
  - destruct (sc_of_b32 P (nonce_rfc6979 P (xor_msg msg (Z.of_nat i)) key None None count)) as [s ov] eqn:E.
    destruct ov; cbn [orb] in H; [discriminate |].
    destruct (s =? 0) eqn:Hz; [discriminate |].
    destruct (gen_s P rest count msg key) as [l |] eqn:Eg; [| discriminate].
    inversion H; subst ss. destruct (IH _ _ _ _ Eg) as [L F].
    pose proof (sc_of_b32_eq_range P (n_pos P MF) _ _ _ E) as R. apply Z.eqb_neq in Hz.
    split; [cbn [length]; f_equal; exact L | constructor; [lia | exact F]].
Qed.

Lemma sign_nonces_spec : forall fuel count msg key nk non ss,
  sign_nonces P fuel count msg key nk = Some (non, ss) ->
  sc_ok non /\ length ss = nk /\ Forall sc_ok ss.
Proof.
  induction fuel as [| f IH]; cbn [sign_nonces]; intros count msg key nk non ss H; [discriminate |].
  destruct (sc_of_b32 P (nonce_rfc6979 P msg key None None count)) as [v ov] eqn:E.
  destruct ov; cbn [orb] in H; [exact (IH _ _ _ _ _ _ H) |].
  destruct (v =? 0) eqn:Hz; [exact (IH _ _ _ _ _ _ H) |].
  destruct (gen_s P (seq 0 nk) count msg key) as [l |] eqn:Eg; [| exact (IH _ _ _ _ _ _ H)].
  inversion H; subst non ss. destruct (gen_s_spec _ _ _ _ _ Eg) as [L F].
  pose proof (sc_of_b32_eq_range P (n_pos P MF) _ _ _ E) as R. apply Z.eqb_neq in Hz.
  rewrite seq_length in L. repeat split; auto; lia.
Qed.

Lemma tweaked_privkey_range : forall ok sk sec, compute_tweaked_privkey P ok sk = Some sec -> 0 <= sec < cn P.
Proof.
  intros ok sk sec H. apply tweaked_privkey_Some_iff in H. destruct H as (t & _ & _ & _ & _ & _ & ->).
  apply sc_add_range, (n_pos P MF).
Qed.

Lemma hash_pubkey_range : forall Q t, hash_pubkey P Q = Some t -> 0 <= t < cn P.
Proof.
  intros Q t H. unfold hash_pubkey in H. destruct Q; [| discriminate].
  destruct (sc_of_b32 P (sha256 (ser33 (Some p)))) as [v ov] eqn:E.
  destruct (ov || (v =? 0)); [discriminate |]. inversion H; subst. exact (sc_of_b32_eq_range P (n_pos P MF) _ _ _ E).
Qed.

Lemma wl_load_scalars_written : forall ss, Forall sc_ok ss -> wl_load_scalars P (map sc_to_b32 ss) = Some ss.
Proof.
  induction 1 as [| s l Hs F IH]; [reflexivity |]. cbn [map wl_load_scalars].
  rewrite sc_of_b32_to_b32, IH by lia. destruct (Z.eqb_spec s 0); [lia | reflexivity].
Qed.

Lemma compute_keys_length : forall online offline nk sub, length (compute_keys P online offline nk sub) = nk.
Proof. intros. unfold compute_keys. rewrite map_length, seq_length. reflexivity. Qed.

Lemma nth_compute_keys : forall online offline nk sub index, (index < nk)%nat ->
  nth index (compute_keys P online offline nk sub) None =
  ring_key P (pk_pt sub) (pk_pt (key_obj online index)) (pk_pt (key_obj offline index)).
Proof.
  intros online offline nk sub index H. unfold compute_keys.
  set (f := fun i => ring_key P (pk_pt sub) (pk_pt (key_obj online i)) (pk_pt (key_obj offline i))).
  rewrite (nth_indep _ None (f O)) by (rewrite map_length, seq_length; exact H).
  rewrite map_nth. rewrite seq_nth by exact H. reflexivity.
Qed.

(* a signature object holding a valid ring signature e0 || s_0 || s_1 ... over the ring keys verifies *)
Lemma wl_verify_stored : forall nk online offline sub e0 ss,
  (1 <= nk <= 255)%nat -> length e0 = 32%nat -> length ss = nk -> Forall sc_ok ss ->
  borromean_verify P e0 ss (compute_keys P online offline nk sub) [nk] 1 (compute_message online offline nk sub) = true ->
  whitelist_verify P (mkWsig (Z.of_nat nk) (e0 ++ flat_map sc_to_b32 ss)) online offline (Z.of_nat nk) sub = true.
Proof.
  intros nk online offline sub e0 ss Hnk Le0 Lss Fss Hv.
  destruct (written_sig_view e0 ss [] Le0) as [V1 V2]. rewrite app_nil_r, Lss in *.
  unfold whitelist_verify, verify_gen, verify_prelude_rejects, WL_MAX_KEYS, wl_chunks. cbn [ws_n ws_data andb].
  destruct (Z.eqb_spec (Z.of_nat nk) 0); [lia |].
  destruct (Z.ltb_spec 255 (Z.of_nat nk)); [lia |].
  rewrite Z.eqb_refl. cbn [orb negb]. rewrite Nat2Z.id, V1, V2, (wl_load_scalars_written _ Fss). exact Hv.
Qed.

(* signing with a secret that matches the ring key at [index] yields a signature that verifies against
   exactly that key list and whitelisted key *)
Lemma sign_verifies : forall online offline nk sub online_key summed_key index sig sec,
  (1 <= nk <= 255)%nat -> (index < nk)%nat ->
  compute_tweaked_privkey P online_key summed_key = Some sec ->
  nth index (compute_keys P online offline nk sub) None = pmul sec G ->
  forallb ninf (compute_keys P online offline nk sub) = true ->
  whitelist_sign_core P online offline nk sub online_key summed_key index = WSignOk sig ->
  whitelist_verify P sig online offline (Z.of_nat nk) sub = true.
Proof.
  intros online offline nk sub ok sk index sig sec Hnk Hidx Hsec Hkey Hninf H.
  unfold whitelist_sign_core in H. rewrite Hsec in H.
  set (pubs := compute_keys P online offline nk sub) in *. set (msg := compute_message online offline nk sub) in *.
  destruct (sign_nonces P 64 0 _ (sc_to_b32 sec) nk) as [[non ss] |] eqn:En; [| discriminate].
  destruct (borromean_sign P ss _ [non] [sec] [nk] [index] 1 _) as [[e0 s'] |] eqn:Eb; [| discriminate].
  inversion H; subst sig. clear H.
  destruct (sign_nonces_spec _ _ _ _ _ _ _ En) as (Hnon & Lss & Fss).
  pose proof (sc_ok_nz _ Fss) as Hnz.
  rewrite <- Lss in Eb, Hidx.
  apply (ring1_sign_verifies_idx P MF) in Eb;
    [| unfold pubs; rewrite compute_keys_length; symmetry; exact Lss | exact Hidx | lia | exact (tweaked_privkey_range _ _ _ Hsec)
     | apply forallb_firstn, Hnz | apply forallb_skipn, Hnz | exact Hninf | exact Hkey].
  destruct Eb as (Hv & Le0 & snew & Rnew & ->). rewrite Lss in Hv.
  apply wl_verify_stored; [exact Hnk | exact Le0 | rewrite length_replace_nth; assumption | | exact Hv].
  apply Forall_replace_nth; assumption.
Qed.

(* the ring key at [index] when the online secret is the discrete log of online_index and the summed
   secret that of offline_index + W *)
Lemma honest_ring_key : forall online offline nk sub online_key summed_key index sec,
  (index < nk)%nat ->
  0 < be_val online_key < cn P -> 0 < be_val summed_key < cn P ->
  pk_pt (key_obj online index) = pmul (be_val online_key) G ->
  Curve.padd P (pk_pt (key_obj offline index)) (pk_pt sub) = pmul (be_val summed_key) G ->
  compute_tweaked_privkey P online_key summed_key = Some sec ->
  nth index (compute_keys P online offline nk sub) None = pmul sec G.
Proof.
  intros online offline nk sub okb skb index sec Hidx Hok Hsk Hon Hoff Hsec.
  rewrite nth_compute_keys by exact Hidx. unfold ring_key, tweak_pubkey. rewrite Hoff, Hon.
  apply tweaked_privkey_Some_iff in Hsec. destruct Hsec as (t & _ & _ & _ & _ & Ht & ->).
  rewrite !Z.mod_small in * by lia. rewrite Ht.
  pose proof (hash_pubkey_range _ _ Ht) as Rt.
  pose proof (oc_G P MF) as HG.
  unfold sc_add, sc_mul.
  rewrite (pmul_madd P MF) by (try lia; unfold mmul; apply Z.mod_pos_bound; lia).
  rewrite (pmul_mmul P MF) by lia.
  f_equal.
  rewrite <- (pmul_mul P MF) by (auto; lia). rewrite <- (pmul_mul P MF) by (auto; lia).
  f_equal. lia.
Qed.
End Complete.
