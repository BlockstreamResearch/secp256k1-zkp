(* Completeness of ECDSA adaptor signatures under the group premises (property C14): what encrypt produces,
   verify accepts - stated after deserialization (the byte round trip of compressed points is not proved). *)
From Coq Require Import ZArith List Bool Lia Morphisms.
Require Import Spec.Params Spec.Field Spec.Curve Spec.Bytes Spec.Sha256.
Require Import Model.Base Model.Der Model.Adaptor.
Require Import Proofs.MathFacts Proofs.GroupLemmas Proofs.BytesLemmas Proofs.ModLemmas Proofs.CurveLemmas Proofs.BaseLemmas.
Require Import Proofs.EcdsaProofs Proofs.EcdsaComplete Proofs.AdaptorProofs.
Import ListNotations.
Local Open Scope Z_scope.

Section AdaptorComplete.
Variable P : Params.
Hypothesis MF : MathFacts P.
Hypothesis IF : InvFacts P.
Notation n := (cn P).
Notation p := (cp P).
Notation G := (Curve.G P).
Notation pmul := (Curve.pmul P).
Notation padd := (Curve.padd P).
Notation oc := (oc P).

Local Instance eqm_equiv : Equivalence (eqm n) := eqm_setoid n.
Local Instance add_eqm : Proper (eqm n ==> eqm n ==> eqm n) Z.add := Zplus_eqm n.
Local Instance mul_eqm : Proper (eqm n ==> eqm n ==> eqm n) Z.mul := Zmult_eqm n.
Local Instance opp_eqm : Proper (eqm n ==> eqm n) Z.opp := Zopp_eqm n.

(* points of order dividing n: under MathFacts (cofactor 1) these are all the curve points *)
Definition ordn (Q : point) : Prop := oc Q /\ pmul n Q = None.

Lemma ordn_iff_oc Q : ordn Q <-> oc Q.
Proof. split; [intros [H _]; exact H|intros H; split; [exact H|apply (mf_cofactor P MF), H]]. Qed.

Lemma dleq_complete Y sk k :
  ordn Y -> 0 <= sk < n -> 0 <= k < n ->
  pmul k G <> None -> pmul k Y <> None ->
  let P1 := pmul sk G in let P2 := pmul sk Y in
  let e := dleq_challenge P Y (pmul k G) (pmul k Y) P1 P2 in
  let s := sc_add P (sc_mul P e sk) k in
  dleq_verify P s e P1 Y P2 = true.
Proof using MF.
  intros [HY _] Hsk Hk HR1 HR2 P1 P2 e s. subst P1 P2. pose proof (n_pos P MF) as Hn.
  set (en := sc_neg P e).
  pose proof (sc_add_range P Hn (sc_mul P e sk) k) as Hs. pose proof (sc_neg_range P Hn e) as Hen. fold s in Hs. fold en in Hen.
  (* R1 and R2 of the verifier are the prover's k*G and k*Y *)
  assert (base : forall Q, oc Q -> padd (pmul en (pmul sk Q)) (pmul s Q) = pmul k Q).
  { intros Q HQ. rewrite <- (pmul_mul P MF), <- (pmul_add P MF) by (auto; nia).
    apply (pmul_eqm_Q P MF); auto; try nia. unfold en, s, sc_neg, sc_add, sc_mul. eqm_solve n. }
  apply dleq_verify_exact. cbv zeta. fold en.
  rewrite (padd_comm P MF (pmul s Y)) by (repeat apply (oc_pmul P MF); exact HY).
  rewrite (base G (oc_G P MF)), (base Y HY). fold e.
  split; [assumption|split; [assumption|]].
  unfold en, sc_add, sc_neg, madd, mneg. rewrite Zplus_mod_idemp_r, Z.add_opp_diag_r. apply Z.mod_0_l. lia.
Qed.

(* the ECDSA equation with nonce k and "signature" (r, s'), s' = k^-1 (m + r d) *)
Lemma adaptor_equation d m k r : 0 <= d -> 0 < k < n ->
  let sp := sc_mul P (sc_inv P k) (sc_add P (sc_mul P r d) m) in
  sp <> 0 -> verify_point P r sp (pmul d G) m = pmul k G.
Proof.
  intros Hd Hk sp Hsp. pose proof (sc_mul_range P (n_pos P MF) (sc_inv P k) (sc_add P (sc_mul P r d) m)) as Hr. fold sp in Hr.
  apply (ecdsa_equation P MF IF); try lia.
  transitivity ((sc_inv P k * k) * (r * d + m)); [unfold sp, sc_mul, sc_add; eqm_solve n|].
  rewrite (sc_inv_l P IF k Hk). eqm_solve n.
Qed.

Lemma dleq_prove_verifies kind Y k ndata ds de :
  oc Y -> Y <> None -> 0 < k < n ->
  dleq_prove P kind k (pmul k G) Y (pmul k Y) ndata = Some (ds, de) ->
  dleq_verify P ds de (pmul k G) Y (pmul k Y) = true.
Proof.
  intros HY HYn Hk. unfold dleq_prove, dleq_nonce. pose proof (n_pos P MF) as Hn.
  destruct (adaptor_nonce_fn kind _ _ _ tag_dleq ndata) as [nonce|]; [|discriminate].
  pose proof (sc_of_b32_range P Hn nonce) as Hk2. set (k2 := fst (sc_of_b32 P nonce)) in *.
  destruct (k2 =? 0) eqn:Ez; [discriminate|]. apply Z.eqb_neq in Ez. intros [= <- <-].
  apply (dleq_complete Y k k2); try assumption; try lia.
  - apply ordn_iff_oc, HY.
  - apply (pmul_G_nonzero P MF). lia.
  - apply (pmul_nonzero_Q P MF); [exact HY|exact HYn|lia].
Qed.

(* the premise that the produced string deserializes to the produced values stands for the byte round trip of the
   two compressed points (eckey_pubkey_parse (ser33 R) = Some R), which is not proved *)
Lemma encrypt_verifies : forall kind seckey32 encobj msg32 ndata sig Y d,
  pk_load encobj = Some Y -> oc Y -> seckey_of_b32 P seckey32 = Some d ->
  adaptor_encrypt P kind seckey32 encobj msg32 ndata = [AInt 1; ABytes sig] ->
  exists R Rp sp e s,
    sig = adaptor_sig_serialize R Rp sp e s /\
    (adaptor_sig_deserialize_full P sig = Some (R, fst (sc_of_b32 P (fe_to_b32 (px R))), Rp, sp, e, s) ->
     adaptor_verify_spec P sig (pmul d G) (fst (sc_of_b32 P msg32)) Y = true).
Proof.
  intros kind seckey32 encobj msg32 ndata sig Y d HL HY Hd H. pose proof (n_pos P MF) as Hn.
  apply encrypt_ok_inv in H. destruct H as (Y' & nb & d' & ds & de & HL' & _ & Hd' & H).
  rewrite HL in HL'. injection HL' as <-. rewrite Hd in Hd'. injection Hd' as <-.
  apply seckey_of_b32_range in Hd.
  assert (HYn : Y <> None) by (unfold pk_load in HL; destruct (_ =? 0); [discriminate|injection HL as <-; discriminate]).
  cbv zeta in H. set (k := be_val nb mod n) in H. set (sigr := be_val _ mod n) in H. set (m := be_val msg32 mod n) in H.
  destruct H as (Hk0 & _ & Hsp & Ed & ->).
  assert (Hk : 0 < k < n) by (pose proof (Z.mod_pos_bound (be_val nb) n Hn); fold k in H; lia).
  do 5 eexists. split; [reflexivity|]. intros Hdes. unfold adaptor_verify_spec. rewrite Hdes.
  rewrite (dleq_prove_verifies kind Y k ndata ds de HY HYn Hk Ed). cbn [andb].
  change (fst (sc_of_b32 P msg32)) with m. change (fst (sc_of_b32 P (fe_to_b32 (px (pmul k Y))))) with sigr.
  pose proof (adaptor_equation d m k sigr ltac:(lia) Hk Hsp) as AE. unfold verify_point in AE. rewrite AE.
  destruct (pmul k G) eqn:EkG; [|apply (pmul_G_nonzero P MF) in EkG; [contradiction|exact Hk]]. apply point_eqb_refl.
Qed.

Hypothesis Hn256 : n < 2 ^ 256.
Hypothesis Hn2 : 2 < n.

(* a point of odd prime order has y <> 0, so negation flips the parity of y *)
Lemma neg_flips_parity x yc : oc (Some (x, yc)) -> Z.odd (mneg p yc) = negb (Z.odd yc).
Proof.
  intros Hoc. pose proof (on_curve_range P x yc Hoc) as [_ Hy]. pose proof (p_pos P MF) as Hp.
  assert (Hy0 : yc <> 0).
  { intros ->. apply (pmul_nonzero_Q P MF 2 (Some (x, 0))); [exact Hoc|discriminate|lia|].
    change (pmul 2 (Some (x, 0))) with (pdbl P (Some (x, 0))). rewrite (pdbl_padd P).
    replace (Some (x, 0)) with (Curve.pneg P (Some (x, 0))) at 2 by (unfold Curve.pneg; rewrite mneg_0 by exact Hp; reflexivity).
    apply (padd_neg P MF). exact Hoc. }
  apply mneg_odd; [exact Hp| |lia].
  rewrite (Z.div_mod p 4), (mf_p_3mod4 P MF) by lia. replace (4 * (p / 4) + 3) with (1 + 2 * (2 * (p / 4) + 1)) by ring.
  rewrite Z.odd_add_mul_2. reflexivity.
Qed.

(* recover computes dk = +-y; whichever it is, the implied key has the x of y*G and the parity test selects y *)
Lemma parity_select y dk : 0 < y < n -> dk = y \/ dk = mneg n y ->
  px (pmul dk G) = px (pmul y G) /\
  (if Bool.eqb (Z.odd (py (pmul dk G))) (Z.odd (py (pmul y G))) then dk else sc_neg P dk) = y.
Proof.
  intros Hy [->| ->]; [rewrite Bool.eqb_reflx; auto|].
  rewrite (pmul_mneg P MF) by lia.
  pose proof (oc_pmul P MF y G (oc_G P MF)) as Hoc.
  destruct (pmul y G) as [[x yc]|] eqn:EY; [|apply (pmul_G_nonzero P MF) in EY; [contradiction|exact Hy]].
  cbn [Curve.pneg px py]. rewrite (neg_flips_parity x yc Hoc). unfold sc_neg. rewrite mneg_involutive by lia.
  destruct (Z.odd yc); auto.
Qed.

Lemma recover_inverse : forall sig162 encobj sigr sp y s,
  adaptor_sig_deserialize_part P sig162 = Some (sigr, sp) ->
  0 < y < n -> pk_load encobj = Some (pmul y G) ->
  0 <= s < n -> (eqm n (s * y) sp \/ eqm n (s * y) (- sp)) ->
  adaptor_recover P (sig_obj sigr s) sig162 encobj = [AInt 1; ABytes (sc_to_b32 y)].
Proof.
  intros sig162 encobj sigr sp y s Hpart Hy HL Hs Hrel. pose proof (n_pos P MF) as Hn.
  pose proof (proj1 (codec_part_exact P sig162 sigr sp) Hpart) as (Esr & Hsr0 & Esp & Hspr).
  assert (Hsr : 0 <= sigr < n) by (rewrite Esr; apply Z.mod_pos_bound, Hn).
  assert (Hspn : ~ eqm n sp 0) by (unfold eqm; rewrite Z.mod_small, Z.mod_0_l by lia; lia).
  assert (Hs0 : s <> 0).
  { intros ->. destruct Hrel as [H|H]; apply Hspn; [|apply opp_eqm in H; rewrite Z.opp_involutive in H]; rewrite <- H; eqm_solve n. }
  pose proof (sc_inv_l P IF s ltac:(lia)) as Is.
  rewrite recover_exact, Hpart, HL. unfold sig_obj, sc_to_b32.
  rewrite firstn_be_enc, skipn_be_enc, !be_val_enc32 by lia.
  rewrite (Z.mod_small sigr), (Z.mod_small s) by lia. cbv zeta.
  pose proof (sc_mul_range P Hn (sc_inv P s) sp) as Hdk. set (dk := sc_mul P (sc_inv P s) sp) in *.
  assert (E : dk = y \/ dk = mneg n y).
  { destruct Hrel as [Hrel|Hrel]; [left|right]; apply (eqm_small n); auto; try lia; try apply mneg_range, Hn.
    - transitivity (sc_inv P s * sp); [unfold dk, sc_mul; eqm_solve n|]. rewrite <- Hrel.
      transitivity ((sc_inv P s * s) * y); [eqm_solve n|]. rewrite Is. eqm_solve n.
    - transitivity (- (sc_inv P s * (- sp))); [unfold dk, sc_mul; eqm_solve n|]. rewrite <- Hrel.
      transitivity (- ((sc_inv P s * s) * y)); [eqm_solve n|]. rewrite Is. eqm_solve n. }
  destruct (parity_select y dk Hy E) as [Ex ->]. rewrite Ex, !Z.eqb_refl.
  destruct (s =? 0) eqn:Es; [lia|reflexivity].
Qed.

(* decrypt then recover, from the signature AND from its negated-s twin, gives back exactly the decryption key *)
Lemma recover_decrypt : forall deckey32 sig162 encobj sigr sp,
  adaptor_sig_deserialize_part P sig162 = Some (sigr, sp) ->
  0 < be_val deckey32 < n -> pk_load encobj = Some (pmul (be_val deckey32) G) ->
  exists s, adaptor_decrypt P deckey32 sig162 = [AInt 1; ABytes (sig_obj sigr s)] /\ sc_is_high P s = false /\
    adaptor_recover P (sig_obj sigr s) sig162 encobj = [AInt 1; ABytes (sc_to_b32 (be_val deckey32))] /\
    adaptor_recover P (sig_obj sigr (sc_neg P s)) sig162 encobj = [AInt 1; ABytes (sc_to_b32 (be_val deckey32))].
Proof.
  intros deckey32 sig162 encobj sigr sp Hpart Hy HL. pose proof (n_pos P MF) as Hn.
  rewrite decrypt_exact, Hpart. set (y := be_val deckey32) in *.
  rewrite (Z.mod_small y) by lia. replace (y <? n) with true by (symmetry; apply Z.ltb_lt; lia).
  replace (y =? 0) with false by (symmetry; apply Z.eqb_neq; lia). cbn [negb andb]. cbv zeta.
  pose proof (sc_mul_range P Hn (sc_inv P y) sp) as Hs0. set (s0 := sc_mul P (sc_inv P y) sp) in *.
  assert (R0 : eqm n (s0 * y) sp).
  { transitivity ((sc_inv P y * y) * sp); [unfold s0, sc_mul; eqm_solve n|]. rewrite (sc_inv_l P IF y Hy). eqm_solve n. }
  assert (Rn : forall t, eqm n (sc_neg P t * y) (- (t * y))) by (intros t; unfold sc_neg; eqm_solve n).
  pose proof (sc_neg_range P Hn) as Hr.
  eexists. split; [reflexivity|]. split; [apply Z.ltb_ge, (sc_low_s P Hn s0 Hs0)|].
  destruct (sc_is_high P s0); split; apply (recover_inverse sig162 encobj sigr sp y); auto.
  - right. rewrite Rn, R0. reflexivity.
  - left. rewrite Rn, Rn, R0. eqm_solve n.
  - right. rewrite Rn, R0. reflexivity.
Qed.
End AdaptorComplete.
