(* The definitions of Model/Base.v that every module uses: normal forms of the scalar, field-element and object codecs, ranges of the
   scalar operations, inverse and low-S normalisation. *)
From Coq Require Import ZArith List Bool Lia.
Require Import Spec.Params Spec.Field Spec.Curve Spec.Bytes Model.Base.
Require Import Proofs.BytesLemmas Proofs.ModLemmas Proofs.CurveLemmas Proofs.MathFacts.
Local Open Scope Z_scope.

Section BaseLemmas.
Variable P : Params.
Notation n := (cn P).
Notation p := (cp P).

Lemma sc_of_b32_eq b : sc_of_b32 P b = (be_val b mod n, negb (be_val b <? n)).
Proof. unfold sc_of_b32. f_equal. apply Z.leb_antisym. Qed.
Lemma sc_of_b32_ok b : be_val b < n -> sc_of_b32 P b = (be_val b mod n, false).
Proof. intros H. unfold sc_of_b32. f_equal. apply Z.leb_gt, H. Qed.
Lemma sc_of_b32_ov b : n <= be_val b -> sc_of_b32 P b = (be_val b mod n, true).
Proof. intros H. unfold sc_of_b32. f_equal. apply Z.leb_le, H. Qed.
Lemma sc_of_b32_snd b : snd (sc_of_b32 P b) = (n <=? be_val b).
Proof. reflexivity. Qed.
Lemma sc_of_b32_small b : 0 <= be_val b < n -> sc_of_b32 P b = (be_val b, false).
Proof. intros H. rewrite sc_of_b32_ok, Z.mod_small by lia. reflexivity. Qed.

Lemma sc_of_b32_range (Hn : 0 < n) b : 0 <= fst (sc_of_b32 P b) < n.
Proof. apply Z.mod_pos_bound, Hn. Qed.
Lemma sc_of_b32_eq_range (Hn : 0 < n) b e ov : sc_of_b32 P b = (e, ov) -> 0 <= e < n.
Proof. intros H. pose proof (sc_of_b32_range Hn b) as R. rewrite H in R. exact R. Qed.

Lemma sc_to_b32_length s : length (sc_to_b32 s) = 32%nat.
Proof. apply be_enc_length. Qed.
Lemma sc_of_b32_enc x : 0 <= x < n -> n <= 2 ^ 256 -> sc_of_b32 P (be_enc 32 x) = (x, false).
Proof. intros Hx Hn. rewrite <- (be_val_enc32 x) at 2 by lia. apply sc_of_b32_small. rewrite be_val_enc32; lia. Qed.
Lemma sc_of_b32_to_b32 s : 0 <= s < n -> n <= 2 ^ 256 -> sc_of_b32 P (sc_to_b32 s) = (s, false).
Proof. apply sc_of_b32_enc. Qed.

Lemma sc_add_range (Hn : 0 < n) a b : 0 <= sc_add P a b < n. Proof. apply madd_range, Hn. Qed.
Lemma sc_mul_range (Hn : 0 < n) a b : 0 <= sc_mul P a b < n. Proof. apply mmul_range, Hn. Qed.
Lemma sc_neg_range (Hn : 0 < n) a : 0 <= sc_neg P a < n. Proof. apply mneg_range, Hn. Qed.
Lemma sc_inv_range (Hn : 0 < n) a : 0 <= sc_inv P a < n. Proof. apply minv_range, Hn. Qed.
Lemma sc_inv_l (IF : InvFacts P) a : 0 < a < n -> eqm n (sc_inv P a * a) 1.
Proof. intros Ha. unfold eqm, sc_inv. rewrite (if_ninv P IF a Ha), Z.mod_small by lia. reflexivity. Qed.

Lemma sc_low_s (Hn : 0 < n) s : 0 <= s < n -> 0 <= (if sc_is_high P s then sc_neg P s else s) <= n / 2.
Proof.
  intros Hs. pose proof (Z.div_mod n 2 ltac:(lia)). pose proof (Z.mod_pos_bound n 2 ltac:(lia)).
  unfold sc_is_high, sc_neg. destruct (n / 2 <? s) eqn:E; [apply Z.ltb_lt in E|apply Z.ltb_ge in E; lia].
  rewrite mneg_small by lia. lia.
Qed.

Lemma seckey_of_b32_Some_iff b k : seckey_of_b32 P b = Some k <-> k = be_val b /\ 0 < k < n.
Proof.
  unfold seckey_of_b32. destruct (_ && _) eqn:E.
  - apply andb_true_iff in E. rewrite !Z.ltb_lt in E. split; [intros [= <-]; auto|intros [-> _]; reflexivity].
  - apply andb_false_iff in E. rewrite !Z.ltb_ge in E. split; [discriminate|intros [-> H]; lia].
Qed.
Lemma seckey_of_b32_range b k : seckey_of_b32 P b = Some k -> 0 < k < n.
Proof. intros H. apply seckey_of_b32_Some_iff in H. tauto. Qed.
Lemma seckey_of_b32_enc d : 0 < d < n -> n <= 2 ^ 256 -> seckey_of_b32 P (be_enc 32 d) = Some d.
Proof. intros Hd Hn. apply seckey_of_b32_Some_iff. rewrite be_val_enc32 by lia. auto. Qed.

Lemma fe_to_b32_length x : length (fe_to_b32 x) = 32%nat.
Proof. apply be_enc_length. Qed.
Lemma fe_roundtrip (Hp256 : p <= 2 ^ 256) x : 0 <= x < p -> fe_of_b32 P (fe_to_b32 x) = Some x.
Proof.
  intros Hx. unfold fe_of_b32, fe_to_b32. rewrite be_val_enc32 by lia.
  replace (x <? p) with true by (symmetry; apply Z.ltb_lt; lia). reflexivity.
Qed.

Lemma pk_load_pk_obj x y : 0 < x < 2 ^ 256 -> 0 <= y < 2 ^ 256 ->
  pk_load (pk_obj (Some (x, y))) = Some (Some (x, y)).
Proof.
  intros Hx Hy. unfold pk_load, pk_obj, fe_to_b32. rewrite firstn_be_enc, skipn_be_enc, !be_val_enc32 by lia.
  replace (x =? 0) with false by (symmetry; apply Z.eqb_neq; lia). reflexivity.
Qed.
Lemma pk_load_pk_obj_oc (Hp256 : p <= 2 ^ 256) x y : on_curve P (Some (x, y)) = true -> x <> 0 ->
  pk_load (pk_obj (Some (x, y))) = Some (Some (x, y)).
Proof. intros Hoc Hx. apply on_curve_range in Hoc. apply pk_load_pk_obj; lia. Qed.
Lemma pk_obj_length Q : length (pk_obj Q) = 64%nat.
Proof. destruct Q as [[x y]|]; [|apply zeros_length]. cbn [pk_obj]. rewrite app_length, !fe_to_b32_length. reflexivity. Qed.

Lemma ser33_length Q : length (ser33 Q) = 33%nat.
Proof. destruct Q as [[x y]|]; [|reflexivity]. cbn [ser33 length]. rewrite fe_to_b32_length. reflexivity. Qed.
End BaseLemmas.

Lemma pk_load_finite obj Q : pk_load obj = Some Q -> exists x y, Q = Some (x, y).
Proof. unfold pk_load. intros H. destruct (_ =? 0); inversion H. eauto. Qed.
