(* Numeric facts about the constants of secp256k1 and of the toy curve, by computation. *)
From Coq Require Import ZArith.
Require Import Spec.Params Spec.Field Spec.Curve Proofs.MathFacts Proofs.EcdsaProofs Proofs.Toy.
Local Open Scope Z_scope.
Lemma secp_p_pos : 0 < cp secp256k1. Proof. reflexivity. Qed.
Lemma secp_n_pos : 0 < cn secp256k1. Proof. reflexivity. Qed.
Lemma secp_n_lt_p : cn secp256k1 < cp secp256k1. Proof. reflexivity. Qed.
Lemma secp_p_lt_2n : cp secp256k1 < 2 * cn secp256k1. Proof. reflexivity. Qed.
Lemma secp_p_3mod4 : cp secp256k1 mod 4 = 3. Proof. reflexivity. Qed.
Lemma secp_G_on_curve : on_curve secp256k1 (G secp256k1) = true. Proof. vm_compute. reflexivity. Qed.
Lemma secp_G_inr : inr secp256k1 (G secp256k1). Proof. exact (on_curve_inr _ _ secp_G_on_curve). Qed.
Lemma secp_n_lt_2_256 : cn secp256k1 < 2 ^ 256. Proof. reflexivity. Qed.
Lemma secp_p_lt_2_256 : cp secp256k1 < 2 ^ 256. Proof. reflexivity. Qed.
Lemma toy_p_pos : 0 < cp toy. Proof. reflexivity. Qed.
Lemma toy_n_lt_p : cn toy < cp toy. Proof. reflexivity. Qed.
Lemma toy_p_lt_2n : cp toy < 2 * cn toy. Proof. reflexivity. Qed.
Lemma toy_G_inr : inr toy (G toy). Proof. exact (on_curve_inr _ _ (proj1 (mf_G toy toy_MathFacts))). Qed.
