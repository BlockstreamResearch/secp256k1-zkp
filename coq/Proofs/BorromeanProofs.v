(* Model/Borromean.v with a single ring, the way the surjection and whitelist modules use it:
   sign => verify under the group premises [MathFacts], and the byte layout e0 || s_0 || s_1 || ...
   in which both modules store such a signature. *)
From Coq Require Import ZArith List Bool Lia.
Require Import Spec.Params Spec.Field Spec.Curve Spec.Bytes Spec.Sha256 Model.Base Model.Borromean.
Require Import Proofs.MathFacts Proofs.GroupLemmas Proofs.BytesLemmas Proofs.ModLemmas Proofs.Sha256Lemmas Proofs.BaseLemmas.
Import ListNotations.
Local Open Scope Z_scope.

Lemma Forall_replace_nth : forall {A} (Q : A -> Prop) l i v, Forall Q l -> Q v -> Forall Q (firstn i l ++ v :: skipn (S i) l).
Proof.
  induction l; intros [| i] v H Hv; cbn [firstn skipn app]; inversion H; subst; repeat constructor; auto. apply IHl; auto.
Qed.
Lemma length_replace_nth : forall {A} (l : list A) i v, (i < length l)%nat -> length (firstn i l ++ v :: skipn (S i) l) = length l.
Proof. intros. rewrite app_length, firstn_length. cbn [length]. rewrite skipn_length. lia. Qed.

(* the same functions as [nz], [ninf] of Proofs/SurjectionProofs.v *)
Local Notation nz := (fun x : Z => negb (x =? 0)).
Local Notation ninf := (fun Q : point => negb (is_inf Q)).

Section Ring1.
Variable P : Params.
Hypothesis MF : MathFacts P.
Variable m : bytes.
Notation G := (Curve.G P).
Notation pmul := (Curve.pmul P).

Lemma verify_ring_step : forall i j rem' ens sj s' pj pubs',
  verify_ring P m i j (S (S rem')) ens false (sj :: s') (pj :: pubs') =
  if (sj =? 0) || (ens =? 0) || is_inf pj then None else
  if is_inf (bor_ecmult P pj ens sj) then None else
  let '(ens', ov') := sc_of_b32 P (borromean_hash m (ser33 (bor_ecmult P pj ens sj)) i (j + 1)) in
  match verify_ring P m i (j + 1) (S rem') ens' ov' s' pubs' with
  | Some (t, evs, s'', pubs'') => Some (t, ens :: evs, s'', pubs'')
  | None => None
  end.
Proof. reflexivity. Qed.
Lemma verify_ring_last : forall i j ens sj s' pj pubs',
  verify_ring P m i j 1 ens false (sj :: s') (pj :: pubs') =
  if (sj =? 0) || (ens =? 0) || is_inf pj then None else
  if is_inf (bor_ecmult P pj ens sj) then None else
  Some (ser33 (bor_ecmult P pj ens sj), [ens], s', pubs').
Proof. reflexivity. Qed.

(* positions after the signer: verification retraces sign_fwd *)
Lemma ring_fwd : forall s_t p_t i j ens s0 p0 tmp,
  length s_t = length p_t ->
  (ens =? 0) = false -> (s0 =? 0) = false -> is_inf p0 = false ->
  forallb nz s_t = true -> forallb ninf p_t = true ->
  is_inf (bor_ecmult P p0 ens s0) = false ->
  sign_fwd P m i (j + 1) (ser33 (bor_ecmult P p0 ens s0)) s_t p_t = Some tmp ->
  exists evs, verify_ring P m i j (S (length s_t)) ens false (s0 :: s_t) (p0 :: p_t) = Some (tmp, evs, [], []).
Proof.
  induction s_t as [| s1 t IH]; intros p_t i j ens s0 p0 tmp Hl He Hs Hp Hfs Hfp HR H.
  - destruct p_t; [| discriminate]. cbn [sign_fwd] in H. inversion H; subst tmp.
    cbn [length]. rewrite verify_ring_last. rewrite He, Hs, Hp, HR. cbn [orb]. eexists; reflexivity.
  - destruct p_t as [| p1 pt]; [discriminate |]. cbn [length] in Hl. injection Hl as Hl.
    cbn [forallb] in Hfs, Hfp. apply andb_true_iff in Hfs. apply andb_true_iff in Hfp.
    destruct Hfs as [Hs1 Hfs]. destruct Hfp as [Hp1 Hfp].
    apply negb_true_iff in Hs1. apply negb_true_iff in Hp1.
    cbn [sign_fwd] in H.
    cbn [length]. rewrite verify_ring_step. rewrite He, Hs, Hp, HR. cbn [orb].
    destruct (sc_of_b32 P (borromean_hash m (ser33 (bor_ecmult P p0 ens s0)) i (j + 1))) as [ens' ov] eqn:Esc.
    destruct ov; cbn [orb] in H; [discriminate |].
    destruct (ens' =? 0) eqn:He'; [discriminate |].
    destruct (is_inf (bor_ecmult P p1 ens' s1)) eqn:HR'; [discriminate |].
    destruct (IH pt i (j + 1) ens' s1 p1 tmp Hl He' Hs1 Hp1 Hfs Hfp HR' H) as [evs Hv].
    rewrite Hv. eexists; reflexivity.
Qed.

(* positions before the signer: the challenge sign_bwd arrives at is a non-zero scalar ... *)
Lemma sign_bwd_range : forall s_pre p_pre i j ens ens_x,
  0 <= ens < cn P -> (ens =? 0) = false ->
  sign_bwd P m i j ens s_pre p_pre = Some ens_x -> 0 <= ens_x < cn P /\ (ens_x =? 0) = false.
Proof.
  induction s_pre as [| s0 t IH]; intros p_pre i j ens ens_x Hr He H; cbn [sign_bwd] in H.
  - inversion H; subst. auto.
  - destruct p_pre as [| p0 pt]; [inversion H; subst; auto |].
    destruct (is_inf (bor_ecmult P p0 ens s0)); [discriminate |].
    destruct (sc_of_b32 P (borromean_hash m (ser33 (bor_ecmult P p0 ens s0)) i (j + 1))) as [ens' ov] eqn:Esc.
    destruct ov; cbn [orb] in H; [discriminate |].
    destruct (ens' =? 0) eqn:He'; [discriminate |].
    exact (IH _ _ _ _ _ (sc_of_b32_eq_range P (n_pos P MF) _ _ _ Esc) He' H).
Qed.

(* ... and verification retraces sign_bwd, then carries on with the rest of the ring *)
Lemma ring_bwd : forall s_pre p_pre i j ens ens_x r s_r p_r res,
  length s_pre = length p_pre ->
  (ens =? 0) = false -> forallb nz s_pre = true -> forallb ninf p_pre = true ->
  sign_bwd P m i j ens s_pre p_pre = Some ens_x ->
  verify_ring P m i (j + Z.of_nat (length s_pre)) (S r) ens_x false s_r p_r = Some res ->
  exists evs, verify_ring P m i j (length s_pre + S r) ens false (s_pre ++ s_r) (p_pre ++ p_r)
              = Some (fst (fst (fst res)), evs, snd (fst res), snd res).
Proof.
  induction s_pre as [| s0 t IH]; intros p_pre i j ens ens_x r s_r p_r res Hl He Hfs Hfp H Hv.
  - destruct p_pre; [| discriminate]. cbn [sign_bwd] in H. inversion H; subst ens_x.
    cbn [length app Nat.add] in *. rewrite Z.add_0_r in Hv. rewrite Hv.
    destruct res as [[[tmp evs] a] b]. eexists; reflexivity.
  - destruct p_pre as [| p0 pt]; [discriminate |]. cbn [length] in Hl. injection Hl as Hl.
    cbn [forallb] in Hfs, Hfp. apply andb_true_iff in Hfs. apply andb_true_iff in Hfp.
    destruct Hfs as [Hs0 Hfs]. destruct Hfp as [Hp0 Hfp].
    apply negb_true_iff in Hs0. apply negb_true_iff in Hp0.
    cbn [sign_bwd] in H.
    destruct (is_inf (bor_ecmult P p0 ens s0)) eqn:HR; [discriminate |].
    destruct (sc_of_b32 P (borromean_hash m (ser33 (bor_ecmult P p0 ens s0)) i (j + 1))) as [ens' ov] eqn:Esc.
    destruct ov; cbn [orb] in H; [discriminate |].
    destruct (ens' =? 0) eqn:He'; [discriminate |].
    replace (j + Z.of_nat (length (s0 :: t))) with (j + 1 + Z.of_nat (length t)) in Hv by (cbn [length]; lia).
    destruct (IH pt i (j + 1) ens' ens_x r s_r p_r res Hl He' Hfs Hfp H Hv) as [evs Hv'].
    cbn [length app Nat.add]. rewrite Nat.add_succ_r in *. rewrite verify_ring_step.
    rewrite He, Hs0, Hp0, HR. cbn [orb]. rewrite Esc, Hv'. eexists; reflexivity.
Qed.

(* the signer's position closes the ring: ens*(sec*G) + (k - ens*sec)*G = k*G *)
Lemma ring_close : forall ens sec k, 0 <= ens < cn P -> 0 <= sec < cn P -> 0 <= k < cn P ->
  bor_ecmult P (pmul sec G) ens (sc_add P (sc_neg P (sc_mul P ens sec)) k) = pmul k G.
Proof.
  intros ens sec k He Hs Hk. unfold bor_ecmult, sc_add, sc_neg, sc_mul.
  pose proof (n_pos P MF) as Hn.
  pose proof (mmul_range (cn P) Hn ens sec) as Hb.
  pose proof (mneg_range (cn P) Hn (mmul (cn P) ens sec)) as Ha.
  pose proof (oc_G P MF) as HG.
  assert (HT : oc P (pmul ens (pmul sec G))) by (apply oc_pmul, oc_pmul; auto).
  assert (HK : oc P (pmul k G)) by (apply oc_pmul; auto).
  rewrite (pmul_madd P MF) by lia. rewrite (pmul_mneg P MF) by lia.
  rewrite (pmul_mmul P MF) by lia.
  rewrite <- (padd_assoc P MF) by (auto using oc_neg).
  rewrite (padd_neg P MF) by auto. reflexivity.
Qed.

Lemma borromean_verify_ring1 : forall e0 s pubs r,
  borromean_verify P e0 s pubs [S r] 1 m =
  match verify_ring P m 0 0 (S r) (fst (sc_of_b32 P (borromean_hash m e0 0 0)))
                    (snd (sc_of_b32 P (borromean_hash m e0 0 0))) s pubs with
  | Some (tmp, _, _, _) => bytes_eqb (firstn 32 e0) (sha256 (tmp ++ m))
  | None => false
  end.
Proof.
  intros. unfold borromean_verify, borromean_verify_ev. cbn [length Nat.ltb Nat.leb firstn verify_rings].
  destruct (sc_of_b32 P (borromean_hash m e0 0 0)) as [ens ov]. cbn [fst snd].
  destruct (verify_ring P m 0 0 (S r) ens ov s pubs) as [[[[tmp evs] a] b] |]; [| reflexivity].
  cbn [app]. destruct (bytes_eqb _ _); reflexivity.
Qed.

Lemma borromean_sign_ring1_inv : forall s pubs k sec x e0 s',
  length pubs = length s ->
  borromean_sign P s pubs [k] [sec] [length s] [x] 1 m = Some (e0, s') ->
  exists tmp ens0 ensx,
    is_inf (pmul k G) = false /\
    sign_fwd P m 0 (Z.of_nat x + 1) (ser33 (pmul k G)) (skipn (S x) s) (skipn (S x) pubs) = Some tmp /\
    e0 = sha256 (tmp ++ m) /\
    sc_of_b32 P (borromean_hash m e0 0 0) = (ens0, false) /\ (ens0 =? 0) = false /\
    sign_bwd P m 0 0 ens0 (firstn x s) (firstn x pubs) = Some ensx /\
    (sc_add P (sc_neg P (sc_mul P ensx sec)) k =? 0) = false /\
    s' = firstn x s ++ sc_add P (sc_neg P (sc_mul P ensx sec)) k :: skipn (S x) s.
Proof.
  intros s pubs k sec x e0 s' Lp H.
  assert (Fp : firstn (length s) pubs = pubs) by (rewrite <- Lp; apply firstn_all).
  unfold borromean_sign in H. cbn [firstn length Nat.eqb negb sum_nat fold_right] in H.
  rewrite Nat.add_0_r, !firstn_all, !Fp in H.
  destruct (sign_layout_ok s pubs [k] [sec] [length s] [x]); cbn [negb] in H; [| discriminate].
  cbn [sign_pass1] in H. rewrite !firstn_all, !Fp in H.
  destruct (is_inf (pmul k G)) eqn:HkG; [discriminate |].
  destruct (sign_fwd P m 0 (Z.of_nat x + 1) (ser33 (pmul k G)) (skipn (S x) s) (skipn (S x) pubs)) as [tmp |] eqn:Efwd;
    [| discriminate].
  cbn [app sign_pass2] in H. rewrite !firstn_all, !Fp in H.
  destruct (sc_of_b32 P (borromean_hash m (sha256 (tmp ++ m)) 0 0)) as [ens0 ov0] eqn:Esc0.
  destruct ov0; cbn [orb] in H; [discriminate |].
  destruct (ens0 =? 0) eqn:He0; [discriminate |].
  destruct (sign_bwd P m 0 0 ens0 (firstn x s) (firstn x pubs)) as [ensx |] eqn:Ebwd; [| discriminate].
  destruct (sc_add P (sc_neg P (sc_mul P ensx sec)) k =? 0) eqn:Hsn; [discriminate |].
  rewrite app_nil_r in H. inversion H; subst e0 s'.
  exists tmp, ens0, ensx. repeat split; assumption.
Qed.

(* one ring, signer at position x: a signature made with secret sec for the key sec*G at x, with non-zero
   forged scalars and no key at infinity, verifies; only the scalar at x is rewritten, to a value in (0, n) *)
Lemma ring1_sign_verifies_idx : forall s pubs x k sec e0 s',
  length pubs = length s -> (x < length s)%nat ->
  0 <= k < cn P -> 0 <= sec < cn P ->
  forallb nz (firstn x s) = true -> forallb nz (skipn (S x) s) = true ->
  forallb ninf pubs = true -> nth x pubs None = pmul sec G ->
  borromean_sign P s pubs [k] [sec] [length s] [x] 1 m = Some (e0, s') ->
  borromean_verify P e0 s' pubs [length s] 1 m = true /\ length e0 = 32%nat /\
  exists snew, 0 < snew < cn P /\ s' = firstn x s ++ snew :: skipn (S x) s.
Proof.
  intros s pubs x k sec e0 s' Lp Hx Hk Hsec Hf1 Hf2 Hninf Hkey H.
  destruct (borromean_sign_ring1_inv _ _ _ _ _ _ _ Lp H)
    as (tmp & ens0 & ensx & HkG & Efwd & -> & Esc0 & He0 & Ebwd & Hsn & ->).
  set (snew := sc_add P (sc_neg P (sc_mul P ensx sec)) k) in *.
  pose proof (n_pos P MF) as Hn.
  destruct (sign_bwd_range _ _ _ _ _ _ (sc_of_b32_eq_range P Hn _ _ _ Esc0) He0 Ebwd) as [Hrx Hex].
  assert (Hsnr : 0 <= snew < cn P) by apply (sc_add_range P Hn).
  split; [| split; [apply length_sha256 | exists snew; split; [apply Z.eqb_neq in Hsn; lia | reflexivity]]].
  destruct (list_split_at pubs x None ltac:(lia)) as [Epp Lp1]. rewrite Hkey in Epp.
  destruct (list_split_at s x 0 Hx) as [_ Ls1].
  set (s_pre := firstn x s) in *. set (s_suf := skipn (S x) s) in *.
  rewrite Epp. set (p_pre := firstn x pubs) in *. set (p_suf := skipn (S x) pubs) in *.
  assert (Hinfx : is_inf (pmul sec G) = false).
  { rewrite <- Hkey. apply negb_true_iff. rewrite forallb_forall in Hninf. apply Hninf, nth_In. lia. }
  assert (Hfp1 : forallb ninf p_pre = true) by (apply forallb_firstn; exact Hninf).
  assert (Hfp2 : forallb ninf p_suf = true) by (apply forallb_skipn; exact Hninf).
  assert (L1 : length s_pre = length p_pre) by lia.
  assert (L2 : length s_suf = length p_suf) by (unfold s_suf, p_suf; rewrite !skipn_length; lia).
  (* from the signer's position on, verification retraces the forward pass, which started from k*G *)
  assert (Eclose : bor_ecmult P (pmul sec G) ensx snew = pmul k G) by (apply ring_close; auto).
  assert (Hfwd : exists evs, verify_ring P m 0 (0 + Z.of_nat (length s_pre)) (S (length s_suf)) ensx false
                               (snew :: s_suf) (pmul sec G :: p_suf) = Some (tmp, evs, [], [])).
  { apply ring_fwd; auto; rewrite Eclose; [exact HkG | rewrite Ls1; exact Efwd]. }
  destruct Hfwd as [evs Hfwd].
  destruct (ring_bwd _ _ _ _ _ _ _ _ _ _ L1 He0 Hf1 Hfp1 Ebwd Hfwd) as [evs' Hv]. cbn [fst snd] in Hv.
  replace (length s) with (length s_pre + S (length s_suf))%nat by (unfold s_suf; rewrite skipn_length; lia).
  rewrite Nat.add_succ_r in *. rewrite borromean_verify_ring1, Esc0. cbn [fst snd]. rewrite Hv.
  rewrite firstn_all2 by (rewrite length_sha256; lia). apply bytes_eqb_refl.
Qed.
End Ring1.

(* [chunks d k] below is what Model/Surjection.v calls data_chunks and Model/Whitelist.v wl_chunks *)
Local Notation chunks d k := (map (fun i => firstn 32 (skipn (32 + 32 * i)%nat d)) (seq 0 k)).

Lemma chunks_flat : forall (ss : list Z) (pre rest : bytes) p, length pre = p ->
  map (fun i => firstn 32 (skipn (p + 32 * i)%nat (pre ++ flat_map sc_to_b32 ss ++ rest))) (seq 0 (length ss))
  = map sc_to_b32 ss.
Proof.
  induction ss as [| s t IH]; intros pre rest p Hp; [reflexivity |].
  cbn [length seq map flat_map]. f_equal.
  - rewrite Nat.mul_0_r, Nat.add_0_r. subst p. rewrite skipn_app_len.
    rewrite <- app_assoc. apply firstn_app_exact, sc_to_b32_length.
  - rewrite <- seq_shift, map_map.
    rewrite <- (IH (pre ++ sc_to_b32 s) rest (p + 32)%nat) by (rewrite app_length, sc_to_b32_length; lia).
    apply map_ext. intros i. rewrite <- !app_assoc. f_equal. f_equal. lia.
Qed.

(* what a verifier reads back from a stored signature *)
Lemma written_sig_view : forall (e0 : bytes) (ss : list Z) (rest : bytes), length e0 = 32%nat ->
  firstn 32 (e0 ++ flat_map sc_to_b32 ss ++ rest) = e0 /\
  chunks (e0 ++ flat_map sc_to_b32 ss ++ rest) (length ss) = map sc_to_b32 ss.
Proof. intros e0 ss rest L. split; [apply firstn_app_exact, L | apply chunks_flat, L]. Qed.
