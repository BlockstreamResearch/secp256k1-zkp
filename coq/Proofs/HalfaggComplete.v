(* Completeness of half-aggregation under the group premises [MathFacts]: the aggregate of signatures that
   satisfy the BIP-340 verification equation in its lifted form  s*G = lift_x(r) + e*P  is accepted by
   aggregate verification for the same keys and messages.  (With inc_aggregate_assoc the same holds for
   every incrementally built aggregate: it is the same byte string.) *)
From Coq Require Import ZArith List Bool Lia Znumtheory.
Require Import Spec.Params Spec.Field Spec.Curve Spec.Bytes Spec.Sha256 Model.Base Model.Schnorr Model.Halfagg.
Require Import Proofs.MathFacts Proofs.GroupLemmas Proofs.BytesLemmas Proofs.BaseLemmas Proofs.HalfaggProofs.
Import ListNotations.
Local Open Scope Z_scope.

Section HalfaggComplete.
Variable P : Params.
Hypothesis MF : MathFacts P.
Hypothesis n_fits : cn P <= 2 ^ 256.

Let Hn : 0 < cn P := n_pos P MF.
Lemma p_pos_mf : 0 < cp P.
Proof. pose proof (prime_ge_2 _ (mf_p_prime P MF)). lia. Qed.

(* a (key object, message, signature) triple whose signature verifies in the lifted form of BIP-340 *)
Definition sig_valid (t : trip) : Prop :=
  exists Q rx R,
    pk_load (t_pk t) = Some Q /\ oc P Q /\ length (t_sig t) = 64%nat /\
    fe_of_b32 P (firstn 32 (t_sig t)) = Some rx /\ ge_set_xo P rx false = Some R /\
    0 <= be_val (skipn 32 (t_sig t)) /\
    pmul P (be_val (skipn 32 (t_sig t))) (G P) =
      padd P (pmul P (challenge P (firstn 32 (t_sig t)) (t_msg t) (fe_to_b32 (px Q))) Q) (Some R).

Lemma sig_valid_wf : forall t, sig_valid t -> wf_trip t.
Proof.
  intros t (Q & rx & R & HQ & _ & HL & _). split.
  - unfold xonly_ser. rewrite HQ. discriminate.
  - lia.
Qed.

Lemma challenge_range : forall r m pk, 0 <= challenge P r m pk < cn P.
Proof. intros. unfold challenge. apply sc_of_b32_range. exact Hn. Qed.

Definition v_item (t : trip) : bytes * bytes * bytes := (t_pk t, t_msg t, firstn 32 (t_sig t)).

Lemma zf_nonneg : forall i pre, 0 <= zf P i pre.
Proof. intros. unfold zf. destruct (i =? 0); [lia | apply sc_of_b32_range, Hn]. Qed.

Lemma agg_sum_nonneg : forall (w : list trip) pre i, Forall sig_valid w -> 0 <= agg_sum P (map t_item w) pre i.
Proof.
  induction w as [|t w IH]; intros pre i H; [simpl; lia|].
  inversion H as [|? ? Ht Hw]; subst. destruct Ht as (Q & rx & R & _ & _ & _ & _ & _ & Hs & _).
  cbn [map agg_sum t_item mk_item t_km]. fold (zf P i (pre ++ firstn 32 (t_sig t) ++ ser_of (t_pk t) ++ t_msg t)).
  pose proof (zf_nonneg i (pre ++ firstn 32 (t_sig t) ++ ser_of (t_pk t) ++ t_msg t)).
  specialize (IH (pre ++ firstn 32 (t_sig t) ++ ser_of (t_pk t) ++ t_msg t) (i + 1) Hw). nia.
Qed.

(* on valid signatures the loop runs through and its sum is (S + sum_i z_i*s_i)*G: every term z_i*(e_i*P_i + R_i)
   is z_i*s_i*G by the signature equation *)
Lemma aggv_loop_valid : forall (w : list trip) pre i S,
  Forall sig_valid w -> 0 <= S ->
  aggv_loop P (map v_item w) pre i (pmul P S (G P)) = inr (pmul P (S + agg_sum P (map t_item w) pre i) (G P)).
Proof.
  induction w as [|t w IH]; intros pre i S H HS.
  - simpl. rewrite Z.add_0_r. reflexivity.
  - inversion H as [|? ? Ht Hw]; subst.
    pose proof (agg_sum_nonneg w) as Hnn.
    destruct Ht as (Q & rx & R & HQ & HocQ & HL & Hrx & HR & Hs & Heq).
    assert (Eser : ser_of (t_pk t) = fe_to_b32 (px Q)) by (unfold ser_of, xonly_ser; rewrite HQ; reflexivity).
    cbn [map aggv_loop agg_sum v_item t_item mk_item t_km]. rewrite HQ, Hrx, HR, Eser. cbv zeta. rewrite <- Heq.
    set (pre' := pre ++ firstn 32 (t_sig t) ++ fe_to_b32 (px Q) ++ t_msg t).
    set (sv := be_val (skipn 32 (t_sig t))) in *.
    fold (zf P i pre'). pose proof (zf_nonneg i pre') as Hz.
    replace (if i =? 0 then pmul P sv (G P) else pmul P (hz P pre') (pmul P sv (G P)))
      with (pmul P (zf P i pre') (pmul P sv (G P))) by (unfold zf; destruct (i =? 0); reflexivity).
    assert (OG : oc P (G P)) by (apply oc_G; exact MF).
    rewrite <- (pmul_mul P MF), <- pmul_add, IH, Z.add_assoc by (try assumption; nia). reflexivity.
Qed.

Lemma chunks32_flat : forall (l : list item) rest, Forall wf_item l ->
  chunks32 (length l) (flat_map item_r l ++ rest) = map item_r l.
Proof.
  induction l as [|it l IH]; intros rest H; [reflexivity|].
  inversion H as [|? ? H1 H2]; subst. cbn [length chunks32 flat_map map]. rewrite <- app_assoc.
  rewrite (firstn_app_exact (item_r it) _ 32 H1), (skipn_app_exact (item_r it) _ 32 H1), IH by assumption.
  reflexivity.
Qed.

Theorem aggregate_verifies : forall (w : list trip) agg len,
  Forall sig_valid w ->
  Z.of_nat (length w) < size_max ->
  32 * (Z.of_nat (length w) + 1) <= len -> len <= Z.of_nat (length agg) ->
  exists out,
    halfagg_aggregate P (Some agg) (Some len) (Some (map t_pk w)) (Some (map t_msg w)) (Some (map t_sig w)) (Z.of_nat (length w))
      = [AInt 1; AInt (32 * (Z.of_nat (length w) + 1)); ABytes out] /\
    halfagg_aggverify P (Some (map t_pk w)) (Some (map t_msg w)) (Z.of_nat (length w)) (Some out) (32 * (Z.of_nat (length w) + 1))
      = [AInt 1].
Proof.
  intros w agg len Hv Hsz Hlen Hcap.
  assert (Hwf : Forall wf_trip w) by (eapply Forall_impl; [apply sig_valid_wf | exact Hv]).
  pose proof (Forall_wf_items w Hwf) as Hit.
  eexists. split; [apply halfagg_aggregate_ok; assumption|].
  rewrite (aggregate_bytes_spec P Hn).
  set (S := agg_sum P (map t_item w) [] 0).
  assert (HS : 0 <= S) by (apply agg_sum_nonneg; exact Hv).
  assert (HSm : 0 <= S mod cn P < cn P) by (apply Z.mod_pos_bound; exact Hn).
  set (tail := skipn _ agg).
  unfold halfagg_aggverify. cbn [negb].
  rewrite (proj2 (aggv_len_ok_iff _ _)) by lia. cbv zeta. rewrite Nat2Z.id, !firstn_map_all.
  (* the loop reads back the r_i and the keys and messages it was given *)
  rewrite <- (map_length t_item w) at 1. rewrite chunks32_flat, map_map, !combine_map2 by exact Hit.
  change (map (fun x : trip => _) w) with (map v_item w). change (@None (Z * Z)) with (pmul P 0 (G P)).
  rewrite aggv_loop_valid by (try assumption; lia). rewrite Z.add_0_l. fold S.
  (* and the scalar *)
  rewrite (slice_app_mid _ _ tail _ 32) by (rewrite ?flat_r_length, ?map_length by exact Hit; auto using sc_to_b32_length).
  rewrite sc_of_b32_to_b32 by assumption.
  rewrite (pmul_mod_n P MF S HS).
  assert (OX : oc P (pmul P S (G P))) by (apply oc_pmul; [exact MF | apply oc_G; exact MF]).
  rewrite padd_neg_l by assumption. reflexivity.
Qed.
End HalfaggComplete.

(* the premises are satisfiable: a valid signature on the toy curve (Proofs/Toy.v proves MathFacts toy) *)
Require Import Proofs.Toy.
Definition toy_Q : point := pmul toy 3 (G toy).
Definition toy_R : point := pmul toy 5 (G toy).      (* even y *)
Definition toy_msg : bytes := zeros 32.
Definition toy_r32 : bytes := fe_to_b32 (px toy_R).
Definition toy_s : Z := (5 + challenge toy toy_r32 toy_msg (fe_to_b32 (px toy_Q)) * 3) mod 31.
Definition toy_trip : trip := (pk_obj toy_Q, toy_msg, toy_r32 ++ sc_to_b32 toy_s).
(* the one hash of the example, evaluated once *)
Lemma toy_challenge : challenge toy toy_r32 toy_msg (fe_to_b32 (px toy_Q)) = 7.
Proof. vm_compute. reflexivity. Qed.
Example toy_sig_valid : sig_valid toy toy_trip.
Proof.
  assert (S : toy_s = 26) by (unfold toy_s; rewrite toy_challenge; reflexivity).
  exists toy_Q, (px toy_R), (px toy_R, py toy_R). unfold toy_trip. rewrite S. cbn [t_sig t_pk t_msg fst snd].
  change (firstn 32 (toy_r32 ++ sc_to_b32 26)) with toy_r32. rewrite toy_challenge.
  repeat split; try (vm_compute; reflexivity); vm_compute; discriminate.
Qed.
Example toy_aggregate_verifies :
  exists out,
    halfagg_aggregate toy (Some (zeros 64)) (Some 64) (Some [t_pk toy_trip]) (Some [t_msg toy_trip]) (Some [t_sig toy_trip]) 1
      = [AInt 1; AInt 64; ABytes out] /\
    halfagg_aggverify toy (Some [t_pk toy_trip]) (Some [t_msg toy_trip]) 1 (Some out) 64 = [AInt 1].
Proof.
  assert (F : cn toy <= 2 ^ 256) by (vm_compute; discriminate).
  exact (aggregate_verifies toy toy_MathFacts F [toy_trip] (zeros 64) 64
           (Forall_cons _ toy_sig_valid (Forall_nil _)) ltac:(vm_compute; reflexivity) ltac:(vm_compute; discriminate) ltac:(vm_compute; discriminate)).
Qed.
