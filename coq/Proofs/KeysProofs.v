(* The key operations of Model/Keys.v: the exact failure set and result of each (`*_exact`), that creating a public key commutes with
   negation and the tweaks (create_commutes, under MathFacts), and that the model's sort returns a sorted permutation. *)
From Coq Require Import ZArith List Bool Lia Permutation Sorted.
Require Import Spec.Params Spec.Field Spec.Curve Spec.Bytes.
Require Import Model.Base Model.Keys Proofs.BytesLemmas Proofs.BaseLemmas Proofs.MathFacts Proofs.GroupLemmas.
Import ListNotations.
Local Open Scope Z_scope.
Local Opaque be_enc.

Section KeysProofs.
Variable P : Params.
Notation n := (cn P).
Notation G := (Curve.G P).
Notation pmul := (Curve.pmul P).
Notation padd := (Curve.padd P).
Notation pneg := (Curve.pneg P).

(* exact success/failure conditions (no premises): every operation is an if-then-else of its
   documented conditions, and the failure output is all-zero *)
Definition validb (b : bytes) : bool := (0 <? be_val b) && (be_val b <? n).

Lemma seckey_of_b32_validb b : seckey_of_b32 P b = if validb b then Some (be_val b) else None.
Proof. reflexivity. Qed.

Lemma pubkey_create_exact seckey :
  ec_pubkey_create P seckey =
    if validb seckey then [AInt 1; ABytes (pk_obj (pmul (be_val seckey) G))] else [AInt 0; ABytes pk_obj_zero].
Proof. unfold ec_pubkey_create, pubkey_create_pt. rewrite seckey_of_b32_validb. destruct (validb seckey); reflexivity. Qed.

Lemma seckey_negate_exact seckey :
  ec_seckey_negate P seckey =
    if validb seckey then [AInt 1; ABytes (sc_to_b32 ((- be_val seckey) mod n))] else [AInt 0; ABytes (zeros 32)].
Proof. unfold ec_seckey_negate. rewrite seckey_of_b32_validb. destruct (validb seckey); reflexivity. Qed.

Lemma seckey_tweak_add_exact seckey tweak :
  let d := be_val seckey in let t := be_val tweak in
  ec_seckey_tweak_add P seckey tweak =
    if validb seckey && (t <? n) && negb ((d + t) mod n =? 0)
    then [AInt 1; ABytes (sc_to_b32 ((d + t) mod n))] else [AInt 0; ABytes (zeros 32)].
Proof.
  cbv zeta. unfold ec_seckey_tweak_add, seckey_tweak_add_helper. rewrite sc_of_b32_eq, seckey_of_b32_validb.
  unfold sc_add, madd. destruct (validb seckey); [|reflexivity]. rewrite Zplus_mod_idemp_r.
  destruct (be_val tweak <? n), ((be_val seckey + be_val tweak) mod n =? 0); reflexivity.
Qed.

Lemma seckey_tweak_mul_exact seckey tweak :
  let d := be_val seckey in let t := be_val tweak in
  ec_seckey_tweak_mul P seckey tweak =
    if validb seckey && (t <? n) && negb (t mod n =? 0)
    then [AInt 1; ABytes (sc_to_b32 ((d * (t mod n)) mod n))] else [AInt 0; ABytes (zeros 32)].
Proof.
  cbv zeta. unfold ec_seckey_tweak_mul. rewrite sc_of_b32_eq, seckey_of_b32_validb.
  destruct (validb seckey), (be_val tweak <? n), (be_val tweak mod n =? 0); reflexivity.
Qed.

Lemma pubkey_tweak_add_exact obj tweak Q : pk_load obj = Some Q ->
  let t := be_val tweak in
  ec_pubkey_tweak_add P obj tweak =
    if t <? n then match padd Q (pmul (t mod n) G) with
                   | None => [AInt 0; ABytes pk_obj_zero] | R => [AInt 1; ABytes (pk_obj R)] end
    else [AInt 0; ABytes pk_obj_zero].
Proof.
  intros HL. cbv zeta. unfold ec_pubkey_tweak_add, pubkey_tweak_add_helper. rewrite HL, sc_of_b32_eq.
  destruct (be_val tweak <? n); [destruct (padd Q _)|]; reflexivity.
Qed.

Lemma pubkey_tweak_mul_exact obj tweak Q : pk_load obj = Some Q ->
  let t := be_val tweak in
  ec_pubkey_tweak_mul P obj tweak =
    if (t <? n) && negb (t mod n =? 0) then [AInt 1; ABytes (pk_obj (pmul (t mod n) Q))] else [AInt 0; ABytes pk_obj_zero].
Proof.
  intros HL. cbv zeta. unfold ec_pubkey_tweak_mul. rewrite sc_of_b32_eq, HL.
  destruct (be_val tweak <? n), (be_val tweak mod n =? 0); reflexivity.
Qed.

(* combine fails exactly when the sum is the point at infinity (or the list is empty: illegal call) *)
Lemma pubkey_combine_exact objs : objs <> [] ->
  ec_pubkey_combine P objs =
    match psum P (map (fun o => match pk_load o with Some Q => Q | None => None end) objs) with
    | None => [AInt 0; ABytes pk_obj_zero] | R => [AInt 1; ABytes (pk_obj R)] end.
Proof. intros H. unfold ec_pubkey_combine. destruct objs; [contradiction|]. destruct (psum P _); reflexivity. Qed.

Definition key_le (a b : bytes) : Prop := bytes_cmp (fst (cmp_key a)) (fst (cmp_key b)) <= 0.

Lemma bytes_cmp_antisym_total a b : bytes_cmp a b <= 0 \/ bytes_cmp b a <= 0.
Proof.
  revert b. induction a as [|x a IH]; intros [|y b]; simpl; try lia.
  destruct (x <? y) eqn:A, (y <? x) eqn:B; try lia; try apply IH.
Qed.

Lemma insert_perm x l : Permutation (insert_sorted x l) (x :: l).
Proof.
  induction l as [|y l IH]; simpl; [reflexivity|].
  destruct (bytes_cmp _ _ <=? 0); [reflexivity|]. rewrite IH. apply perm_swap.
Qed.
Lemma sort_perm l : Permutation (sort_objs l) l.
Proof. induction l as [|x l IH]; simpl; [reflexivity|]. rewrite insert_perm. constructor. exact IH. Qed.

Lemma bytes_cmp_trans a b c : bytes_cmp a b <= 0 -> bytes_cmp b c <= 0 -> bytes_cmp a c <= 0.
Proof.
  revert b c. induction a as [|x a IH]; intros [|y b] [|z c]; simpl; try lia.
  destruct (x <? y) eqn:A, (y <? x) eqn:B, (y <? z) eqn:C, (z <? y) eqn:D, (x <? z) eqn:E, (z <? x) eqn:F; try lia; try (eapply IH; eassumption).
Qed.

Lemma insert_sorted_sorted x l : Sorted key_le l -> Sorted key_le (insert_sorted x l).
Proof.
  induction l as [|y l IH]; intros H; simpl; [repeat constructor|].
  destruct (bytes_cmp (fst (cmp_key x)) (fst (cmp_key y)) <=? 0) eqn:E.
  - constructor; [exact H|]. constructor. unfold key_le. lia.
  - inversion H as [|? ? Hs Hh]; subst. constructor; [apply IH; exact Hs|].
    assert (Hyx : key_le y x).
    { unfold key_le. destruct (bytes_cmp_antisym_total (fst (cmp_key x)) (fst (cmp_key y))); lia. }
    destruct l as [|z l]; simpl.
    + constructor. exact Hyx.
    + destruct (bytes_cmp (fst (cmp_key x)) (fst (cmp_key z)) <=? 0); constructor; [exact Hyx|].
      inversion Hh; subst. assumption.
Qed.
Lemma sort_sorted l : Sorted key_le (sort_objs l).
Proof. induction l as [|x l IH]; simpl; [constructor|]. apply insert_sorted_sorted. exact IH. Qed.

(* deriving the public key commutes with tweaking and negation *)
Hypothesis MF : MathFacts P.

Lemma create_commutes d t : 0 <= d < n -> 0 <= t < n ->
  pmul (madd n d t) G = padd (pmul d G) (pmul t G) /\
  pmul (mmul n d t) G = pmul t (pmul d G) /\
  pmul (mneg n d) G = pneg (pmul d G).
Proof.
  intros Hd Ht. split; [apply (pmul_madd P MF); lia|split; [|apply (pmul_mneg P MF); lia]].
  unfold mmul. rewrite Z.mul_comm. apply (pmul_mmul P MF); lia.
Qed.
End KeysProofs.
