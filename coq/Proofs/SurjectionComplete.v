(* Model/Surjection.v, property C11: generate => verify under the group premises [MathFacts]. *)
From Coq Require Import ZArith List Bool Lia.
Require Import Spec.Params Spec.Field Spec.Curve Spec.Bytes Spec.Sha256 Model.Base Model.Borromean Model.Surjection.
Require Import Proofs.MathFacts Proofs.GroupLemmas Proofs.BytesLemmas Proofs.BaseLemmas Proofs.BorromeanProofs Proofs.SurjectionProofs.
Import ListNotations.
Local Open Scope Z_scope.

Section GenerateVerifies.
Variable P : Params.
Hypothesis MF : MathFacts P.
Hypothesis Hn256 : cn P < 2 ^ 256.
Notation G := (Curve.G P).
Notation pmul := (Curve.pmul P).

Lemma genrand_loop_spec : forall k i buf bs, genrand_loop P k i buf = Some bs -> length bs = k /\ Forall (fun s => 0 <= s < cn P) bs.
Proof.
  induction k as [| k IH]; cbn [genrand_loop]; intros i buf bs H.
  - inversion H; subst. split; [reflexivity | constructor].
  - destruct (sc_of_b32 P (sha256 (le_enc 4 i ++ skipn 4 buf))) as [s ov] eqn:E.
    destruct ov; [discriminate |].
    destruct (genrand_loop P k (i + 1) (sha256 (le_enc 4 i ++ skipn 4 buf) ++ skipn 32 (le_enc 4 i ++ skipn 4 buf))) as [l |] eqn:El;
      [| discriminate].
    inversion H; subst bs. destruct (IH _ _ _ El) as [L F].
    split; [cbn [length]; f_equal; exact L | constructor; [exact (sc_of_b32_eq_range P (n_pos P MF) _ _ _ E) | exact F]].
Qed.

(* the ring keys do not depend on input_index *)
Lemma compute_public_keys_fst : forall in_tags i used out idx idx' j j',
  fst (compute_public_keys P in_tags i used out idx j) = fst (compute_public_keys P in_tags i used out idx' j').
Proof.
  induction in_tags as [| t rest IH]; intros i used out idx idx' j j'; cbn [compute_public_keys]; [reflexivity |].
  destruct (bit_test used i).
  - specialize (IH (i + 1) used out idx idx' (j + 1) (j' + 1)).
    destruct (compute_public_keys P rest (i + 1) used out idx (j + 1)) as [k1 r1].
    destruct (compute_public_keys P rest (i + 1) used out idx' (j' + 1)) as [k2 r2].
    cbn [fst] in *. f_equal. exact IH.
  - apply IH.
Qed.

Lemma load_scalars_written : forall ss, Forall (fun s => 0 <= s < cn P) ss -> load_scalars P (map sc_to_b32 ss) = Some ss.
Proof.
  induction 1 as [| s l Hs F IH]; [reflexivity |]. cbn [map load_scalars].
  rewrite sc_of_b32_to_b32, IH by lia. reflexivity.
Qed.

(* the ring signature as generate makes it: slot x of the hash-derived scalars bs serves as the nonce *)
Lemma sign_in_slot : forall m bs pubs x bkey e0 s',
  length pubs = length bs -> (x < length bs)%nat -> Forall (fun s => 0 <= s < cn P) bs -> 0 <= bkey < cn P ->
  forallb nz bs = true -> forallb ninf pubs = true -> nth x pubs None = pmul bkey G ->
  borromean_sign P (upd x 0 bs) pubs [nth x bs 0] [bkey] [length bs] [x] 1 m = Some (e0, s') ->
  borromean_verify P e0 s' pubs [length bs] 1 m = true /\ length e0 = 32%nat /\
  length s' = length bs /\ Forall (fun s => 0 <= s < cn P) s'.
Proof.
  intros m bs pubs x bkey e0 s' Lp Hx Fbs Rb Hnz Hninf Hkey Eb.
  assert (Rnonce : 0 <= nth x bs 0 < cn P) by (rewrite Forall_forall in Fbs; apply Fbs, nth_In, Hx).
  rewrite <- (upd_length bs x 0) in Eb, Hx, Lp.
  apply (ring1_sign_verifies_idx P MF) in Eb; try assumption.
  - destruct Eb as (Hv & Le0 & snew & Rnew & ->). rewrite firstn_upd, skipn_upd, upd_length in *.
    repeat split; [exact Hv | exact Le0 | apply length_replace_nth, Hx | apply Forall_replace_nth; [exact Fbs | lia]].
  - rewrite firstn_upd. apply forallb_firstn, Hnz.
  - rewrite skipn_upd. apply forallb_skipn, Hnz.
Qed.

(* a proof object holding a valid ring signature e0 || s_0 || s_1 ... over the keys of its bitmap verifies *)
Lemma verify_stored : forall pr in_tags out_tag e0 ss rest,
  n_used_inputs pr <> 0 -> n_used_inputs pr <= sp_n pr <= 256 -> sp_n pr = Z.of_nat (length in_tags) ->
  length e0 = 32%nat -> length ss = Z.to_nat (n_used_inputs pr) -> Forall (fun s => 0 <= s < cn P) ss ->
  borromean_verify P e0 ss (fst (compute_public_keys P in_tags 0 (sp_used pr) (tag_load out_tag) 0 0))
                   [length ss] 1 (genmessage in_tags out_tag) = true ->
  verify P (mkProof (sp_n pr) (sp_used pr) (e0 ++ flat_map sc_to_b32 ss ++ rest)) in_tags out_tag = true.
Proof.
  intros pr in_tags out_tag e0 ss rest H0 Hle Hlen Le0 Lss Fss Hv.
  destruct (written_sig_view e0 ss rest Le0) as [V1 V2].
  unfold verify, n_total_inputs, n_used_inputs, used_prefix, SJ_MAX_USED_INPUTS, data_chunks. cbn [sp_n sp_used sp_data].
  fold (used_prefix pr). fold (n_used_inputs pr).
  destruct (Z.eqb_spec (n_used_inputs pr) 0); [contradiction |].
  destruct (Z.ltb_spec (sp_n pr) (n_used_inputs pr)); [lia |].
  destruct (Z.eqb_spec (sp_n pr) (Z.of_nat (length in_tags))); [| contradiction].
  destruct (Z.ltb_spec 256 (n_used_inputs pr)); [lia |]. cbn [orb negb].
  rewrite <- Lss, V1, V2, (load_scalars_written _ Fss). exact Hv.
Qed.

(* generation with a blinding-key difference that matches the ring key at the signer's position yields a
   proof that verifies against the same ephemeral tags.  Premises besides MathFacts and n < 2^256:
   - the ring has one key per set bit of the bitmap (true for bitmaps without padding bits),
   - the signer's ring key is bkey*G (the property's "matching blinding keys"),
   - no ring key is the point at infinity (no selected input equals the output),
   - the hash-derived forged scalars are non-zero (fails with probability 2^-256 per scalar). *)
Lemma generate_verifies : forall pr in_tags out_tag input_index in_key out_key pr' pubs ridx bkey,
  sp_n pr <= 256 ->
  compute_public_keys P in_tags 0 (sp_used pr) (tag_load out_tag) input_index 0 = (pubs, ridx) ->
  bkey = sc_add P (fst (sc_of_b32 P out_key)) (sc_neg P (fst (sc_of_b32 P in_key))) ->
  length pubs = Z.to_nat (n_used_inputs pr) -> 0 <= ridx < n_used_inputs pr ->
  nth (Z.to_nat ridx) pubs None = pmul bkey G ->
  forallb ninf pubs = true ->
  (forall bs, genrand P (Z.to_nat (n_used_inputs pr)) bkey = Some bs -> forallb nz bs = true) ->
  generate P pr in_tags out_tag input_index in_key out_key = Some pr' ->
  verify P pr' in_tags out_tag = true.
Proof.
  intros pr in_tags out_tag input_index in_key out_key pr' pubs ridx bkey
         Hn Hcpk Hbkey Lpubs Hridx Hkey Hninf Hforged H.
  unfold generate in H.
  destruct (sc_of_b32 P in_key) as [tmps [|]]; [discriminate |].
  destruct (sc_of_b32 P out_key) as [bk [|]]; [discriminate |].
  destruct (existsb (fun t => bytes_eqb t out_tag) in_tags); [discriminate |].
  cbn [fst] in Hbkey. rewrite <- Hbkey, Hcpk in H. unfold n_total_inputs in H.
  destruct (Z.ltb_spec (sp_n pr) (n_used_inputs pr)); [discriminate |].
  destruct (Z.eqb_spec (sp_n pr) (Z.of_nat (length in_tags))); [| discriminate]. cbn [orb negb] in H.
  destruct (genrand P (Z.to_nat (n_used_inputs pr)) bkey) as [bs |] eqn:Egr; [| discriminate].
  destruct (borromean_sign P _ pubs _ _ _ _ 1 _) as [[e0 s'] |] eqn:Eb; [| discriminate].
  inversion H; subst pr'. clear H.
  destruct (genrand_loop_spec _ _ _ _ Egr) as [Lbs Fbs].
  assert (Rbkey : 0 <= bkey < cn P) by (rewrite Hbkey; apply sc_add_range, (n_pos P MF)).
  rewrite <- Lbs in Eb, Lpubs.
  apply sign_in_slot in Eb; [| exact Lpubs | lia | exact Fbs | exact Rbkey | exact (Hforged bs eq_refl) | exact Hninf | exact Hkey].
  destruct Eb as (Hv & Le0 & Ls' & Fs'). rewrite <- Ls' in Hv. rewrite Lbs in Ls'.
  rewrite <- app_assoc. apply verify_stored; try assumption; try lia.
  rewrite (compute_public_keys_fst in_tags 0 (sp_used pr) (tag_load out_tag) 0 input_index 0 0), Hcpk. exact Hv.
Qed.
End GenerateVerifies.
