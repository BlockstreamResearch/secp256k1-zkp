(* Lemmas about Model/Bppp.v (property C19). *)
From Coq Require Import ZArith List Bool Lia.
Require Import Spec.Params Spec.Field Spec.Curve Spec.Bytes Spec.Sha256 Model.Base Model.Bppp.
Require Import Proofs.BytesLemmas Proofs.ModLemmas Proofs.CurveLemmas Proofs.BaseLemmas.
Import ListNotations.
Local Open Scope Z_scope.

Lemma is_pow2_spec : forall x, is_pow2 x = true <-> exists k, 0 <= k /\ x = 2 ^ k.
Proof.
  intros x. unfold is_pow2. rewrite andb_true_iff, Z.ltb_lt, Z.eqb_eq. split.
  - intros [Hx Hl]. exists (Z.log2 x). split; [apply Z.log2_nonneg|].
    destruct (Z.log2_spec x Hx) as [Hlo Hhi].
    destruct (Z.eq_dec x (2 ^ Z.log2 x)) as [|Hne]; [assumption|exfalso].
    (* otherwise x and x - 1 share their top bit *)
    assert (Hb : Z.testbit (Z.land x (x - 1)) (Z.log2 x) = true).
    { rewrite Z.land_spec, Z.bit_log2 by assumption.
      assert (Hx1 : 0 < x - 1) by (pose proof (Z.pow_pos_nonneg 2 (Z.log2 x) ltac:(lia) (Z.log2_nonneg x)); lia).
      assert (Z.log2 (x - 1) = Z.log2 x) as E.
      { apply Z.log2_unique; [apply Z.log2_nonneg|]. rewrite Z.pow_succ_r in Hhi by apply Z.log2_nonneg.
        rewrite Z.pow_succ_r by apply Z.log2_nonneg. lia. }
      rewrite <- E. rewrite Z.bit_log2 by assumption. reflexivity. }
    rewrite Hl in Hb. rewrite Z.bits_0 in Hb. discriminate.
  - intros [k [Hk ->]]. split; [apply Z.pow_pos_nonneg; lia|].
    change (2 ^ k - 1) with (Z.pred (2 ^ k)). rewrite <- Z.ones_equiv, Z.land_ones by assumption.
    apply Z.mod_same. apply Z.pow_nonzero; lia.
Qed.

Lemma is_pow2_pos x : is_pow2 x = true -> 0 < x.
Proof. unfold is_pow2. intros [H _]%andb_true_iff. apply Z.ltb_lt, H. Qed.

Lemma pow2_nat : forall m, is_pow2 (Z.of_nat m) = true ->
  exists k, m = (2 ^ k)%nat /\ Z.log2 (Z.of_nat m) = Z.of_nat k.
Proof.
  intros m H. apply is_pow2_spec in H. destruct H as [k [Hk E]]. exists (Z.to_nat k). split.
  - apply Nat2Z.inj. rewrite E, Nat2Z.inj_pow, Z2Nat.id by assumption. reflexivity.
  - rewrite E, Z.log2_pow2, Z2Nat.id by assumption. reflexivity.
Qed.

Lemma land1_cases t : Z.land t 1 = 0 \/ Z.land t 1 = 1.
Proof.
  change 1 with (Z.ones 1) at 1 2. rewrite Z.land_ones by lia. change (2 ^ 1) with 2.
  pose proof (Z.mod_pos_bound t 2). lia.
Qed.

Lemma round_align_mul32 : forall k, round_align (k * 32) = k * 32.
Proof.
  intros k. unfold round_align. replace (k * 32 + 15) with (15 + (2 * k) * 16) by lia.
  rewrite Z.div_add by lia. replace (15 / 16) with 0 by reflexivity. lia.
Qed.

Lemma scratch_allocs4 : forall m a b c d,
  0 <= a -> 0 <= b -> 0 <= c -> 0 <= d ->
  scratch_allocs m 0 [a * 32; b * 32; c * 32; d * 32] = (32 * (a + b + c + d) <=? m).
Proof.
  intros m a b c d Ha Hb Hc Hd. unfold scratch_allocs, scratch_alloc. rewrite !round_align_mul32.
  destruct (Z.ltb_spec (m - 0) (a * 32)); [symmetry; apply Z.leb_gt; lia|].
  destruct (Z.ltb_spec (m - (0 + a * 32)) (b * 32)); [symmetry; apply Z.leb_gt; lia|].
  destruct (Z.ltb_spec (m - (0 + a * 32 + b * 32)) (c * 32)); [symmetry; apply Z.leb_gt; lia|].
  destruct (Z.ltb_spec (m - (0 + a * 32 + b * 32 + c * 32)) (d * 32)); symmetry; [apply Z.leb_gt|apply Z.leb_le]; lia.
Qed.

Lemma be_enc_zero : forall k x, is_zero_bytes (be_enc k x) = true -> x mod 256 ^ Z.of_nat k = 0.
Proof.
  induction k; intros x H.
  - simpl. apply Z.mod_1_r.
  - simpl be_enc in H. unfold is_zero_bytes in H. rewrite forallb_app, andb_true_iff in H. destruct H as [H1 H2].
    apply IHk in H1. simpl in H2. rewrite andb_true_r in H2. apply Z.eqb_eq in H2.
    rewrite Nat2Z.inj_succ, Z.pow_succ_r by lia.
    assert (0 < 256 ^ Z.of_nat k) by (apply Z.pow_pos_nonneg; lia).
    rewrite Z.rem_mul_r by lia. rewrite H2, H1. lia.
Qed.

Lemma is_zero_bytes_zeros : forall k, is_zero_bytes (zeros k) = true.
Proof. induction k; simpl; [reflexivity|assumption]. Qed.

Lemma chunks_flat_map {A} (f : A -> bytes) c l : (0 < c)%nat -> (forall a, length (f a) = c) ->
  chunks c (flat_map f l) = map f l.
Proof.
  intros Hc Hf. unfold chunks. generalize (Nat.lt_succ_diag_r (length (flat_map f l))).
  rewrite (flat_map_length_const f c Hf) at 1. generalize (S (length (flat_map f l))). revert Hc Hf.
  induction l as [|a l IH]; intros Hc Hf fuel Hfuel; (destruct fuel; [simpl in Hfuel; lia|]); [reflexivity|].
  cbn [flat_map map chunks_f]. destruct (f a ++ flat_map f l) eqn:E.
  { apply (f_equal (@length Z)) in E. rewrite app_length, Hf in E. simpl in E. lia. }
  rewrite <- E, <- (Hf a), firstn_app_len, skipn_app_len, (Hf a). f_equal. apply IH; auto. simpl in Hfuel; nia.
Qed.

Lemma sequence_spec {A} (l : list (option A)) r : sequence l = Some r <-> l = map Some r.
Proof.
  revert r. induction l as [|[a|] l IH]; intros r; simpl.
  - split; [intros [= <-]; reflexivity|]. destruct r; [reflexivity|discriminate].
  - destruct (sequence l) as [r'|] eqn:E.
    + split; [intros [= <-]; simpl; f_equal; apply IH; reflexivity|].
      destruct r as [|b r]; [discriminate|]. intros [= -> H]. apply IH in H. congruence.
    + split; [discriminate|]. destruct r as [|b r]; [discriminate|]. intros [= -> H]. apply IH in H. discriminate.
  - split; [discriminate|]. destruct r; discriminate.
Qed.

Lemma sequence_In {A} (l : list (option A)) r x : sequence l = Some r -> In x l -> x <> None.
Proof. intros ->%sequence_spec (y & <- & _)%in_map_iff. discriminate. Qed.

Lemma sequence_firstn : forall {A} (l : list (option A)) r m,
  sequence l = Some r -> sequence (firstn m l) = Some (firstn m r).
Proof. intros A l r m ->%sequence_spec. apply sequence_spec, firstn_map. Qed.

Lemma sequence_length : forall {A} (l : list (option A)) r, sequence l = Some r -> length r = length l.
Proof. intros A l r ->%sequence_spec. symmetry. apply map_length. Qed.

Lemma sequence_map_some : forall {A B} (f : A -> option B) (g : A -> B) l,
  (forall a, In a l -> f a = Some (g a)) -> sequence (map f l) = Some (map g l).
Proof. intros A B f g l H. apply sequence_spec. rewrite map_map. apply map_ext_in, H. Qed.

Lemma pairs_length : forall {A} m (l : list A), length l = (2 * m)%nat -> length (pairs l) = m.
Proof.
  intros A. induction m; intros l H.
  - destruct l; [reflexivity|discriminate].
  - destruct l as [|a [|b r]]; simpl in H; try lia.
    unfold pairs. cbn [evens odds combine length]. f_equal. apply IHm. lia.
Qed.

Lemma fold_pairs_length : forall {A} (f : A * A -> A) k (l : list A),
  length l = (2 ^ k)%nat -> length (fold_pairs f l) = (2 ^ (Nat.pred k))%nat.
Proof.
  intros A f k l H. destruct k.
  - simpl in *. destruct l as [|a [|b r]]; simpl in *; try lia; try reflexivity.
  - assert (H2 : length l = (2 * 2 ^ k)%nat) by (rewrite H; simpl; lia).
    assert (0 < 2 ^ k)%nat by (apply Nat.neq_0_lt_0; apply Nat.pow_nonzero; lia).
    destruct l as [|a [|b r]]; simpl in H2; try lia.
    unfold fold_pairs. rewrite map_length. apply pairs_length. exact H2.
Qed.

Lemma len_le1_pow2 {A} k (l : list A) : length l = (2 ^ k)%nat -> (length l <=? 1)%nat = (k =? 0)%nat.
Proof.
  intros ->. destruct k; [reflexivity|]. apply Nat.leb_gt. pose proof (Nat.pow_nonzero 2 k). simpl. lia.
Qed.

Section BpppProofs.
Variable P : Params.

Definition needed_scratch (g_len h_len : Z) : Z :=
  32 * (Z.max (Z.log2 g_len) (Z.log2 h_len) + g_len + h_len + Z.log2 g_len).

(* the checks of [verify_pre], in the order of the C code *)
Set Implicit Arguments.
Record pre_checks (sm : Z) (proof : bytes) (rho ng g h : Z) : Prop := {
  pc_g : g <> 0;
  pc_h : h <> 0;
  pc_gens : ng = h + g;
  pc_len : Z.of_nat (length proof) = 65 * Z.max (Z.log2 g) (Z.log2 h) + 64;
  pc_pow2_g : is_pow2 g = true;
  pc_pow2_h : is_pow2 h = true;
  pc_n : be_val (slice (Z.to_nat (65 * Z.max (Z.log2 g) (Z.log2 h))) 32 proof) < cn P;
  pc_l : be_val (slice (Z.to_nat (65 * Z.max (Z.log2 g) (Z.log2 h) + 32)) 32 proof) < cn P;
  pc_rho : rho <> 0;
  pc_scratch : needed_scratch g h <= sm }.
Unset Implicit Arguments.

Lemma verify_pre_spec sm proof rho ng g h r :
  verify_pre P sm proof rho ng g h = Some r <->
  pre_checks sm proof rho ng g h /\
  let nr := Z.max (Z.log2 g) (Z.log2 h) in
  r = (fst (sc_of_b32 P (slice (Z.to_nat (65 * nr)) 32 proof)),
       fst (sc_of_b32 P (slice (Z.to_nat (65 * nr + 32)) 32 proof)), Z.log2 g, nr).
Proof.
  unfold verify_pre, bppp_log2, sizeof_scalar. rewrite !sc_of_b32_snd.
  set (nr := Z.max (Z.log2 g) (Z.log2 h)). replace (nr * 65) with (65 * nr) by lia.
  assert (F : forall X Y : Prop, ~ X -> @None (Z * Z * Z * Z) = Some r <-> X /\ Y)
    by (intros X Y HX; split; [discriminate|tauto]).
  destruct (Z.eqb_spec g 0) as [Hg|Hg]; [apply F; intros []; auto|].
  destruct (Z.eqb_spec h 0) as [Hh|Hh]; [apply F; intros []; auto|].
  destruct (Z.eqb_spec ng (h + g)) as [Hng|Hng]; cbn [negb orb]; [|apply F; intros []; auto].
  destruct (Z.eqb_spec (Z.of_nat (length proof)) (65 * nr + 64)) as [Hl|Hl]; cbn [negb];
    [|apply F; intros []; auto].
  destruct (is_pow2 g) eqn:Pg; cbn [negb orb]; [|apply F; intros []; congruence].
  destruct (is_pow2 h) eqn:Ph; cbn [negb]; [|apply F; intros []; congruence].
  destruct (Z.leb_spec (cn P) (be_val (slice (Z.to_nat (65 * nr)) 32 proof))) as [Hn|Hn];
    [apply F; intros []; unfold nr in *; lia|].
  destruct (Z.leb_spec (cn P) (be_val (slice (Z.to_nat (65 * nr + 32)) 32 proof))) as [Hll|Hll];
    [apply F; intros []; unfold nr in *; lia|].
  destruct (Z.eqb_spec rho 0) as [Hr|Hr]; [apply F; intros []; auto|].
  apply is_pow2_pos in Pg as Pg', Ph as Ph'.
  rewrite scratch_allocs4 by (pose proof (Z.log2_nonneg g); pose proof (Z.log2_nonneg h); lia).
  change (32 * (nr + g + h + Z.log2 g)) with (needed_scratch g h).
  destruct (Z.leb_spec (needed_scratch g h) sm) as [Hs|Hs]; cbn [negb]; [|apply F; intros []; lia].
  split; [intros [= <-]; split; [constructor; auto|reflexivity]|intros [_ ->]; reflexivity].
Qed.

Lemma verify_eq_spec : forall sm proof tr rho gens g cv C,
  norm_verify P sm proof tr rho gens g cv C = true <->
  exists nn ll lg nr xr,
    verify_pre P sm proof rho (Z.of_nat (length gens)) g (Z.of_nat (length cv)) = Some (nn, ll, lg, nr) /\
    verify_points P proof (Z.to_nat nr) = Some xr /\
    verify_equation P proof tr rho gens cv C nn ll lg nr xr = true.
Proof.
  intros. unfold norm_verify. split.
  - destruct (verify_pre _ _ _ _ _ _ _) as [[[[nn ll] lg] nr]|]; [|discriminate].
    destruct (verify_points _ _ _) as [xr|] eqn:E; [|discriminate]. intros H. exists nn, ll, lg, nr, xr. auto.
  - intros (nn & ll & lg & nr & xr & -> & -> & H). exact H.
Qed.

Definition rounds_of (g_len : Z) (cv : list Z) : Z := Z.max (Z.log2 g_len) (Z.log2 (Z.of_nat (length cv))).

Lemma norm_verify_checks sm proof tr rho gens g cv C :
  norm_verify P sm proof tr rho gens g cv C = true ->
  pre_checks sm proof rho (Z.of_nat (length gens)) g (Z.of_nat (length cv)) /\
  exists xr, verify_points P proof (Z.to_nat (rounds_of g cv)) = Some xr.
Proof.
  intros (nn & ll & lg & nr & xr & [K [= _ _ _ ->]]%verify_pre_spec & Hx & _)%verify_eq_spec. eauto.
Qed.

Lemma verify_rejects_empty : forall sm proof tr rho gens g cv C,
  g = 0 \/ cv = [] -> norm_verify P sm proof tr rho gens g cv C = false.
Proof.
  intros until C. intros H. apply not_true_is_false. intros [K _]%norm_verify_checks.
  destruct H as [->| ->]; [exact (pc_g K eq_refl)|exact (pc_h K eq_refl)].
Qed.

Lemma verify_rejects_rho_zero : forall sm proof tr gens g cv C,
  norm_verify P sm proof tr 0 gens g cv C = false.
Proof. intros. apply not_true_is_false. intros [K _]%norm_verify_checks. exact (pc_rho K eq_refl). Qed.

(* the two final scalars are the 32-byte strings at offsets 65*rounds and 65*rounds+32 *)
Lemma verify_rejects_scalar_ge_n : forall sm proof tr rho gens g cv C,
  cn P <= be_val (slice (Z.to_nat (65 * rounds_of g cv)) 32 proof) \/
  cn P <= be_val (slice (Z.to_nat (65 * rounds_of g cv + 32)) 32 proof) ->
  norm_verify P sm proof tr rho gens g cv C = false.
Proof.
  intros until C. intros H. apply not_true_is_false. intros [K _]%norm_verify_checks.
  pose proof (pc_n K). pose proof (pc_l K). unfold rounds_of in H. lia.
Qed.

Lemma verify_pre_scratch_irrelevant sm sm' proof rho ng g h :
  needed_scratch g h <= sm -> needed_scratch g h <= sm' ->
  verify_pre P sm proof rho ng g h = verify_pre P sm' proof rho ng g h.
Proof.
  assert (M : forall s s' r, needed_scratch g h <= s' ->
            verify_pre P s proof rho ng g h = Some r -> verify_pre P s' proof rho ng g h = Some r).
  { intros s s' r Hs' [[] E]%verify_pre_spec. apply verify_pre_spec. split; [constructor; auto|exact E]. }
  intros H H'. destruct (verify_pre P sm proof rho ng g h) as [r|] eqn:E; [symmetry; eapply M; eauto|].
  destruct (verify_pre P sm' proof rho ng g h) as [r|] eqn:E'; [|reflexivity]. apply (M _ sm r H) in E'. congruence.
Qed.

Lemma parse_idx_norm : forall in65 idx,
  parse_one_of_points P in65 idx = parse_one_of_points P in65 (if idx =? 0 then 0 else 1).
Proof. intros. unfold parse_one_of_points. destruct (idx =? 0); reflexivity. Qed.

Lemma verify_points_some : forall proof nr xr i idx,
  verify_points P proof nr = Some xr -> (i < nr)%nat ->
  parse_one_of_points P (slice (65 * i) 65 proof) idx <> None.
Proof.
  intros proof nr xr i idx H Hi Hbad. unfold verify_points in H.
  eapply (sequence_In _ _ _ H); [apply in_map with (x := i), in_seq; lia|]. cbv beta.
  rewrite parse_idx_norm in Hbad.
  destruct (idx =? 0); rewrite Hbad; [|destruct (parse_one_of_points _ _ 0)]; reflexivity.
Qed.

Lemma parse_sign_byte_gt_3 : forall in65 idx, 3 < hd 0 in65 -> parse_one_of_points P in65 idx = None.
Proof. intros in65 idx H. unfold parse_one_of_points. apply Z.ltb_lt in H. rewrite H. reflexivity. Qed.

Lemma parse_infinity_with_sign : forall in65 idx,
  let i := if idx =? 0 then 0 else 1 in
  is_zero_bytes (slice (Z.to_nat (1 + 32 * i)) 32 in65) = true ->
  Z.land (hd 0 in65) (2 - i) <> 0 ->
  parse_one_of_points P in65 idx = None.
Proof.
  intros in65 idx i Hz Hs. unfold parse_one_of_points. fold i.
  destruct (3 <? hd 0 in65); [reflexivity|]. rewrite Hz. cbn [negb].
  apply Z.eqb_neq in Hs. rewrite Hs. reflexivity.
Qed.

(* the pair codec is two independent ge_serialize_ext / ge_parse_ext codecs sharing one sign byte *)
Definition codec_wf (Q : point) : Prop :=
  match Q with None => True | Some (x, y) => 0 < x < 2 ^ 256 end.

Lemma serialize_points_length : forall X R, length (serialize_points X R) = 65%nat.
Proof.
  intros X R. unfold serialize_points, ge_serialize_ext. simpl length. rewrite app_length.
  pose proof (ser33_length X). pose proof (ser33_length R).
  destruct (ser33 X), (ser33 R); simpl in *; try discriminate. lia.
Qed.

Lemma fe_nonzero_bytes : forall x, 0 < x < 2 ^ 256 -> is_zero_bytes (fe_to_b32 x) = false.
Proof.
  intros x Hx. unfold fe_to_b32. destruct (is_zero_bytes (be_enc 32 x)) eqn:E; [|reflexivity].
  apply be_enc_zero in E. change (256 ^ Z.of_nat 32) with (2 ^ 256) in E.
  rewrite Z.mod_small in E by lia. lia.
Qed.

Lemma parse_serialize_points X R idx : codec_wf X -> codec_wf R ->
  parse_one_of_points P (serialize_points X R) idx = ge_parse_ext P (ge_serialize_ext (if idx =? 0 then X else R)).
Proof.
  intros HX HR. rewrite parse_idx_norm.
  assert (Hz : ge_parse_ext P (zeros 33) = Some None) by reflexivity.
  unfold parse_one_of_points, serialize_points, ge_serialize_ext. cbn [hd].
  assert (HlX : length (tl (ser33 X)) = 32%nat) by (pose proof (ser33_length X); destruct (ser33 X); simpl in *; lia).
  assert (HlR : length (tl (ser33 R)) = 32%nat) by (pose proof (ser33_length R); destruct (ser33 R); simpl in *; lia).
  assert (S1 : forall b0, slice 1 32 (b0 :: tl (ser33 X) ++ tl (ser33 R)) = tl (ser33 X)).
  { intros b0. change (slice 1 32 (b0 :: ?l)) with (slice 0 32 l). apply slice_app_l. exact HlX. }
  assert (S2 : forall b0, slice 33 32 (b0 :: tl (ser33 X) ++ tl (ser33 R)) = tl (ser33 R)).
  { intros b0. change (slice 33 32 (b0 :: ?l)) with (slice 32 32 l).
    rewrite <- (app_nil_r (tl (ser33 R))) at 1. rewrite <- HlR at 2. apply slice_app_r. exact HlX. }
  destruct (idx =? 0); cbn [Z.eqb];
    [change (Z.to_nat (1 + 32 * 0)) with 1%nat; rewrite S1|change (Z.to_nat (1 + 32 * 1)) with 33%nat; rewrite S2];
    destruct X as [[x y]|], R as [[x' y']|]; cbn [ser33 hd tl codec_wf] in *;
    repeat rewrite fe_nonzero_bytes by assumption; change (is_zero_bytes (zeros 32)) with true; cbn [negb];
    try destruct (Z.odd y); try destruct (Z.odd y'); reflexivity.
Qed.

Lemma gens_from_prefix : forall m k d, (m <= k)%nat -> firstn m (gens_from P d k) = gens_from P d m.
Proof.
  induction m; intros k d H; [reflexivity|].
  destruct k; [lia|]. simpl. f_equal. apply IHm. lia.
Qed.

Lemma generators_prefix_consistent : forall m k, (m <= k)%nat -> firstn m (gens_create P k) = gens_create P m.
Proof. intros. apply gens_from_prefix. assumption. Qed.

Lemma gens_from_length : forall k d, length (gens_from P d k) = k.
Proof. induction k; intros; simpl; [reflexivity|]. rewrite IHk. reflexivity. Qed.

Lemma bp_gen_ser1_length : forall Q, length (bp_gen_ser1 P Q) = 33%nat.
Proof. intros [[x y]|]; [unfold bp_gen_ser1, fe_to_b32; cbn [length]; rewrite be_enc_length; reflexivity|reflexivity]. Qed.

(* member-level round trip when y passes the square test: the candidate root of y^2 is then
   (y^((p+1)/4))^2 = y itself *)
Lemma gen_roundtrip_square x y : cp P <= 2 ^ 256 -> on_curve P (Some (x, y)) = true -> mis_square (cp P) y = true ->
  bp_gen_parse1 P (bp_gen_ser1 P (Some (x, y))) = Some (Some (x, y)).
Proof.
  intros Hp256 [Hx [Hy Hc]]%on_curve_Some Hsq. unfold bp_gen_ser1. rewrite Hsq. cbn [bp_gen_parse1].
  change (negb (Z.land 10 254 =? 10)) with false. cbv iota.
  rewrite (fe_roundtrip P Hp256 x Hx). unfold mis_square, msqrt in Hsq.
  set (s := mpow (cp P) y ((cp P + 1) / 4)) in *.
  destruct (Z.eqb_spec ((s * s) mod cp P) (y mod cp P)) as [Hs|]; [|discriminate].
  rewrite (Z.mod_small y) in Hs by exact Hy.
  assert (E : sqrt_cand P ((x * x * x + cb P) mod cp P) = y).
  { unfold sqrt_cand. rewrite <- Hc, (mpow_base (cp P) _ (y * y)) by apply Zmod_mod. rewrite mpow_mul. exact Hs. }
  cbv zeta. rewrite E. unfold is_sq_cand. rewrite <- Hc, Zmod_mod, Z.eqb_refl. reflexivity.
Qed.

(* round trip of a list, given the round trip of each of its members.  For a member whose y is a
   square the premise is [gen_roundtrip_square]; for the other root it needs that -y is then the square one
   (Euler's criterion, p = 3 mod 4), which is not derived here. *)
Lemma gens_parse_list_serialize l :
  (forall Q, In Q l -> bp_gen_parse1 P (bp_gen_ser1 P Q) = Some Q) ->
  gens_parse_list P (gens_serialize P l) = Some l.
Proof.
  intros H. unfold gens_parse_list, gens_serialize.
  rewrite chunks_flat_map by (lia || apply bp_gen_ser1_length).
  rewrite map_map, (sequence_map_some _ (fun Q => Q)) by exact H. rewrite map_id. reflexivity.
Qed.

(* a rejected encoding leaves no allocation behind; wrong lengths are rejected before allocating *)
Lemma parse_rejects_malformed_without_leak : forall data,
  fst (gens_parse P data) = None -> snd (gens_parse P data) = 0.
Proof.
  intros data. unfold gens_parse. destruct (negb _); [reflexivity|].
  destruct (gens_parse_list P data); [discriminate|reflexivity].
Qed.

(* on power-of-two lengths the loop ends within max(log n, log l) rounds of 65 bytes each *)
Lemma prove_loop_spec : forall fuel tr rho_f mu_f gv hv nv lv cv acc ka kb,
  length nv = (2 ^ ka)%nat -> length lv = (2 ^ kb)%nat -> (Nat.max ka kb <= fuel)%nat ->
  exists pf, prove_loop P fuel tr rho_f mu_f gv hv nv lv cv acc = Some pf /\
             length pf = (length acc + 65 * Nat.max ka kb + 64)%nat.
Proof.
  induction fuel; intros tr rho_f mu_f gv hv nv lv cv acc ka kb Hn Hl Hf;
    cbn [prove_loop]; rewrite (len_le1_pow2 ka nv Hn), (len_le1_pow2 kb lv Hl);
    destruct (Nat.eqb_spec ka 0) as [->|Ha], (Nat.eqb_spec kb 0) as [->|Hb]; cbn [andb]; try lia;
    try (eexists; split; [reflexivity|rewrite !app_length, !sc_to_b32_length; simpl; lia]).
  all: unfold prove_round;
    edestruct (IHfuel (tr ++ serialize_points (x_point P rho_f (sc_inv P rho_f) (sc_mul P mu_f mu_f) gv hv nv lv cv)
                                              (r_point P (sc_mul P mu_f mu_f) gv hv nv lv cv))) as [pf [H1 H2]];
    [apply fold_pairs_length; exact Hn|apply fold_pairs_length; exact Hl|lia|];
    eexists; split; [exact H1|rewrite H2, app_length, serialize_points_length; lia].
Qed.

(* the fuel norm_prove gives the loop always suffices *)
Lemma norm_prove_spec tr rho gens nv lv cv ka kb : length nv = (2 ^ ka)%nat -> length lv = (2 ^ kb)%nat ->
  exists pf, norm_prove P tr rho gens nv lv cv = Some pf /\ length pf = (65 * Nat.max ka kb + 64)%nat.
Proof.
  intros Hn Hl. unfold norm_prove. apply (prove_loop_spec _ _ _ _ _ _ _ _ _ [] ka kb Hn Hl). rewrite Hn, Hl.
  pose proof (Nat.pow_gt_lin_r 2 ka). pose proof (Nat.pow_gt_lin_r 2 kb). lia.
Qed.

(* an honest proof has exactly the length the verifier insists on *)
Lemma prove_length : forall tr rho gens nv lv cv pf,
  is_pow2 (Z.of_nat (length nv)) = true -> is_pow2 (Z.of_nat (length lv)) = true ->
  norm_prove P tr rho gens nv lv cv = Some pf ->
  Z.of_nat (length pf) = 65 * Z.max (Z.log2 (Z.of_nat (length nv))) (Z.log2 (Z.of_nat (length lv))) + 64.
Proof.
  intros tr rho gens nv lv cv pf [ka [Hn Lg]]%pow2_nat [kb [Hl Lh]]%pow2_nat H.
  destruct (norm_prove_spec tr rho gens nv lv cv ka kb Hn Hl) as [pf' [E L]].
  rewrite H in E. injection E as <-. rewrite Lg, Lh, L. lia.
Qed.
End BpppProofs.

(* member-level round trip of generators_roundtrip_partial, on the secp256k1 base point *)
Example gen_roundtrip_G :
  bp_gen_parse1 secp256k1 (bp_gen_ser1 secp256k1 (G secp256k1)) = Some (G secp256k1).
Proof.
  apply gen_roundtrip_square; [discriminate | vm_compute; reflexivity |].
  (* whether Gy is a square is one exponentiation with a 256-bit exponent: run with the folding reduction *)
  unfold mis_square, msqrt. change (cp secp256k1) with (2^256 - (2^32 + 977)).
  rewrite (mpow_fold_spec 256 (2^32 + 977)); [| discriminate | discriminate | discriminate | split; [discriminate | reflexivity]].
  vm_compute. reflexivity.
Qed.

(* the accepting path of the verifier is inhabited: on the toy curve y^2 = x^3 + 7 over F_43 (group
   order 31) a proof made by the model prover for lengths 2 x 2 (one round) and one for lengths
   1 x 1 (no round) verify against the model commitment *)
Definition toy : Params := mkParams 43 7 31 2 12.
Definition toy_gens : list point :=
  [pmul toy 3 (G toy); pmul toy 5 (G toy); pmul toy 7 (G toy); pmul toy 11 (G toy)].
Example toy_prove_verifies_2x2 :
  let nv := [3; 4] in let lv := [5; 6] in let cv := [2; 9] in let rho := 2 in let tr := [1; 2; 3] in
  match norm_prove toy tr rho toy_gens nv lv cv with
  | Some pf => norm_verify toy 100000 pf tr rho toy_gens 2 cv (norm_commit toy toy_gens nv lv cv (rho * rho)) = true
  | None => False
  end.
Proof. vm_compute. reflexivity. Qed.
Example toy_prove_verifies_1x1 :
  let g := firstn 2 toy_gens in
  match norm_prove toy [] 5 g [3] [7] [9] with
  | Some pf => norm_verify toy 64 pf [] 5 g 1 [9] (norm_commit toy g [3] [7] [9] 25) = true
               /\ norm_verify toy 63 pf [] 5 g 1 [9] (norm_commit toy g [3] [7] [9] 25) = false
  | None => False
  end.
Proof. vm_compute. split; reflexivity. Qed.

Definition toy_gens8 : list point := map (fun k => pmul toy k (G toy)) [3; 5; 7; 11; 13; 17; 19; 23].
(* two rounds, different lengths (4 x 2): exercises the s_g / s_h recursions of the verifier *)
Example toy_prove_verifies_4x2 :
  let nv := [3; 4; 30; 1] in let lv := [5; 6] in let cv := [2; 9] in let rho := 3 in let tr := [9] in
  let g := firstn 6 toy_gens8 in
  match norm_prove toy tr rho g nv lv cv with
  | Some pf => norm_verify toy 100000 pf tr rho g 4 cv (norm_commit toy g nv lv cv (rho * rho)) = true
               /\ norm_verify toy 100000 pf tr 4 g 4 cv (norm_commit toy g nv lv cv (rho * rho)) = false
  | None => False
  end.
Proof. vm_compute. split; reflexivity. Qed.
