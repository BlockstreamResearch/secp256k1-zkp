(* List facts missing from the standard library: firstn/skipn across an append at the exact length,
   the predicates that firstn/skipn preserve, the range 0 .. k-1 of Z, flat_map with pieces of one length. *)
From Coq Require Import List Arith ZArith Lia.
Import ListNotations.

Lemma firstn_app_exact {A} (a b : list A) k : length a = k -> firstn k (a ++ b) = a.
Proof. intros <-. rewrite firstn_app, Nat.sub_diag, firstn_all, firstn_O. apply app_nil_r. Qed.
Lemma skipn_app_exact {A} (a b : list A) k : length a = k -> skipn k (a ++ b) = b.
Proof. intros <-. rewrite skipn_app, Nat.sub_diag, skipn_all. reflexivity. Qed.
Lemma firstn_app_len {A} (a b : list A) : firstn (length a) (a ++ b) = a.
Proof. apply firstn_app_exact. reflexivity. Qed.
Lemma skipn_app_len {A} (a b : list A) : skipn (length a) (a ++ b) = b.
Proof. apply skipn_app_exact. reflexivity. Qed.
Lemma skipn_app_len_S {A} (a b : list A) x : skipn (S (length a)) (a ++ x :: b) = b.
Proof. induction a; simpl; auto. Qed.

Lemma skipn_skipn {A} (l : list A) a b : skipn a (skipn b l) = skipn (b + a) l.
Proof. revert l. induction b; intros [|x l]; simpl; auto using skipn_nil. Qed.

Lemma firstn_map_all {A B} (f : A -> B) l : firstn (length l) (map f l) = map f l.
Proof. rewrite <- (map_length f). apply firstn_all. Qed.

Lemma combine_map2 {A B C} (f : A -> B) (g : A -> C) l :
  combine (map f l) (map g l) = map (fun x => (f x, g x)) l.
Proof. induction l; simpl; congruence. Qed.

(* [nth_split] with the two pieces named *)
Lemma list_split_at {A} (l : list A) i d : i < length l ->
  l = firstn i l ++ nth i l d :: skipn (S i) l /\ length (firstn i l) = i.
Proof.
  revert i. induction l; intros [|i] H; simpl in *; try lia; auto.
  destruct (IHl i) as [E L]; [lia|]. rewrite <- E, L. auto.
Qed.

Lemma In_firstn {A} (x : A) k l : In x (firstn k l) -> In x l.
Proof. intros H. rewrite <- (firstn_skipn k l). apply in_or_app. auto. Qed.
Lemma In_skipn {A} (x : A) k l : In x (skipn k l) -> In x l.
Proof. intros H. rewrite <- (firstn_skipn k l). apply in_or_app. auto. Qed.

Lemma Forall_firstn {A} (Q : A -> Prop) l k : Forall Q l -> Forall Q (firstn k l).
Proof. rewrite !Forall_forall. eauto using In_firstn. Qed.
Lemma Forall_skipn {A} (Q : A -> Prop) l k : Forall Q l -> Forall Q (skipn k l).
Proof. rewrite !Forall_forall. eauto using In_skipn. Qed.
Lemma forallb_firstn {A} (f : A -> bool) l k : forallb f l = true -> forallb f (firstn k l) = true.
Proof. rewrite !forallb_forall. eauto using In_firstn. Qed.
Lemma forallb_skipn {A} (f : A -> bool) l k : forallb f l = true -> forallb f (skipn k l) = true.
Proof. rewrite !forallb_forall. eauto using In_skipn. Qed.

(* The integers 0 .. k-1, for facts that are established by running a boolean check through a finite range. *)
Definition zrange (k : Z) : list Z := map Z.of_nat (seq 0 (Z.to_nat k)).
Lemma zrange_In k x : (0 <= x < k)%Z -> In x (zrange k).
Proof. intros H. unfold zrange. apply in_map_iff. exists (Z.to_nat x). split; [lia|]. apply in_seq. lia. Qed.
Lemma In_zrange k x : In x (zrange k) -> (0 <= x < k)%Z.
Proof. unfold zrange. rewrite in_map_iff. intros (i & <- & Hi). apply in_seq in Hi. lia. Qed.
Lemma forallb_zrange (f : Z -> bool) k : forallb f (zrange k) = true -> forall x, (0 <= x < k)%Z -> f x = true.
Proof. intros H x Hx. rewrite forallb_forall in H. apply H, zrange_In, Hx. Qed.

Section ConstLength.
Context {A B : Type} (f : A -> list B) (c : nat) (Hf : forall a, length (f a) = c).

Lemma flat_map_length_const l : length (flat_map f l) = (c * length l)%nat.
Proof. induction l; simpl; [lia|]. rewrite app_length, IHl, Hf. lia. Qed.

Lemma flat_map_firstn_const m : forall l, flat_map f (firstn m l) = firstn (c * m) (flat_map f l).
Proof.
  induction m; intros l; [rewrite Nat.mul_0_r; reflexivity|]. destruct l as [|a l]; [symmetry; apply firstn_nil|].
  cbn [firstn flat_map]. replace (c * S m)%nat with (length (f a) + c * m)%nat by (rewrite Hf; lia).
  rewrite firstn_app_2. f_equal. apply IHm.
Qed.
End ConstLength.
