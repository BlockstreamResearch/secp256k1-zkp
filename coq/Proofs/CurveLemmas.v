(* Facts about the point operations of Spec/Curve.v that hold without any premise on the constants
   beyond 0 < p: equality test, the curve predicate spelled out, lift_x. *)
From Coq Require Import ZArith Bool Lia.
Require Import Spec.Params Spec.Field Spec.Curve Proofs.ModLemmas.
Local Open Scope Z_scope.

Lemma point_eqb_eq A B : point_eqb A B = true <-> A = B.
Proof.
  destruct A as [[a b]|], B as [[c d]|]; simpl; try (split; [discriminate|congruence]); [|tauto].
  rewrite andb_true_iff, !Z.eqb_eq. split; [intros [-> ->]; reflexivity|intros H; inversion H; auto].
Qed.
Lemma point_eqb_refl A : point_eqb A A = true.
Proof. apply point_eqb_eq. reflexivity. Qed.
Lemma point_eqb_false A B : A <> B -> point_eqb A B = false.
Proof. intros H. destruct (point_eqb A B) eqn:E; auto. apply point_eqb_eq in E. contradiction. Qed.

Section CurveLemmas.
Variable P : Params.
Notation p := (cp P).

Lemma on_curve_Some x y : on_curve P (Some (x, y)) = true <->
  0 <= x < p /\ 0 <= y < p /\ (y * y) mod p = (x * x * x + cb P) mod p.
Proof. unfold on_curve. rewrite !andb_true_iff, !Z.leb_le, !Z.ltb_lt, Z.eqb_eq. tauto. Qed.

Lemma on_curve_range x y : on_curve P (Some (x, y)) = true -> 0 <= x < p /\ 0 <= y < p.
Proof. intros H. apply on_curve_Some in H. tauto. Qed.

Lemma on_curve_pneg Q : 0 < p -> on_curve P Q = true -> on_curve P (pneg P Q) = true.
Proof.
  intros Hp. destruct Q as [[x y]|]; [|auto]. unfold pneg. rewrite !on_curve_Some, sq_neg_mod.
  pose proof (mneg_range p Hp y). tauto.
Qed.

Lemma lift_x_on_curve (Hp : 0 < p) x odd Q :
  lift_x P x odd = Some Q -> on_curve P (Some Q) = true /\ fst Q = x.
Proof.
  unfold lift_x. destruct ((x <? 0) || (p <=? x)) eqn:Er; [discriminate|].
  apply orb_false_iff in Er. destruct Er as [E1 E2]. apply Z.ltb_ge in E1. apply Z.leb_gt in E2.
  unfold msqrt. set (r := mpow p _ _).
  destruct (_ =? _) eqn:Es; [|discriminate]. apply Z.eqb_eq in Es. rewrite Z.mod_mod in Es by lia.
  pose proof (mpow_range p Hp ((x * x * x + cb P) mod p) ((p + 1) / 4)) as Hr. fold r in Hr.
  assert (Ho : on_curve P (Some (x, r)) = true) by (apply on_curve_Some; auto).
  destruct (Bool.eqb (Z.odd r) odd); intros H; inversion H; subst Q; split; auto.
  apply (on_curve_pneg _ Hp Ho).
Qed.
End CurveLemmas.
