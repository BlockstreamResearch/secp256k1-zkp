(* Mathematical premises about the curve constants (DESIGN.md 2.4).  These are facts about p, n, G
   and the chord-and-tangent law that no change of the C code can affect.  They are NOT axioms: every
   theorem that needs them takes [MathFacts P] as an explicit hypothesis. *)
From Coq Require Import ZArith Znumtheory.
Require Import Spec.Params Spec.Field Spec.Curve.
Local Open Scope Z_scope.

Definition oc (P : Params) (Q : point) : Prop := on_curve P Q = true.

Record MathFacts (P : Params) : Prop := {
  mf_p_prime : prime (cp P);
  mf_n_prime : prime (cn P);
  mf_p_3mod4 : cp P mod 4 = 3;
  mf_b : 0 <= cb P < cp P;
  mf_closed : forall A B, oc P A -> oc P B -> oc P (padd P A B);
  mf_assoc : forall A B C, oc P A -> oc P B -> oc P C -> padd P (padd P A B) C = padd P A (padd P B C);
  mf_comm : forall A B, oc P A -> oc P B -> padd P A B = padd P B A;
  mf_neg_oc : forall A, oc P A -> oc P (pneg P A);
  mf_neg : forall A, oc P A -> padd P A (pneg P A) = None;
  mf_G : oc P (G P) /\ G P <> None;
  mf_ord : pmul P (cn P) (G P) = None;
  (* the group of curve points has (prime) order n: cofactor 1 *)
  mf_cofactor : forall Q, oc P Q -> pmul P (cn P) Q = None
}.

(* Consequences of the primality of n and p for the Fermat-style inverse used by the model
   (minv m a = a^(m-2) mod m).  Kept separate so that it can be discharged from [mf_n_prime] /
   [mf_p_prime] by Fermat's little theorem without touching the users. *)
Record InvFacts (P : Params) : Prop := {
  if_ninv : forall a, 0 < a < cn P -> (minv (cn P) a * a) mod (cn P) = 1;
  if_pinv : forall a, 0 < a < cp P -> (minv (cp P) a * a) mod (cp P) = 1
}.
