(* Lemmas about the MuSig2 model (Model/Musig.v) and the nonce history machine (Model/MusigNonceSM.v).
   The history machine first (no premises at all), then the comparison with BIP-327 (Spec/Bip327.v). *)
From Coq Require Import ZArith List Bool Lia.
Require Import Spec.Params Spec.Field Spec.Curve Spec.Bytes Spec.Sha256.
Require Import Model.Base Model.Keys Model.Schnorr Model.Musig Model.MusigNonceSM.
Require Import Proofs.BytesLemmas Proofs.ModLemmas Proofs.CurveLemmas Proofs.BaseLemmas Proofs.MathFacts Proofs.GroupLemmas.
Require Spec.Bip327.
Import ListNotations.
Local Open Scope Z_scope.

(* hashing and curve arithmetic never need to be unfolded here *)
Local Opaque tagged_hash sha256 pmul padd nonce_fn_musig keyaggcoef.

Lemma set_nth_length {A} k (v : A) l : length (set_nth k v l) = length l.
Proof. revert k; induction l; intros [|k]; simpl; auto. Qed.

Lemma nth_error_set_nth_eq {A} k (v : A) l : (k < length l)%nat -> nth_error (set_nth k v l) k = Some v.
Proof. revert k; induction l; intros [|k] H; simpl in *; try lia; auto. apply IHl; lia. Qed.

Lemma nth_error_set_nth_neq {A} k j (v : A) l : j <> k -> nth_error (set_nth k v l) j = nth_error l j.
Proof. revert k j; induction l; intros [|k] [|j] H; simpl in *; auto; try congruence. Qed.

Lemma nth_set_nth_eq {A} k (v d : A) l : (k < length l)%nat -> nth k (set_nth k v l) d = v.
Proof. revert k; induction l; intros [|k] H; simpl in *; try lia; auto. apply IHl; lia. Qed.

Lemma nth_set_nth_neq {A} k j (v d : A) l : j <> k -> nth j (set_nth k v l) d = nth j l d.
Proof. revert k j; induction l; intros [|k] [|j] H; simpl in *; auto; try congruence. Qed.

Lemma nth_error_lt_ex {A} (l : list A) k : (k < length l)%nat -> exists x, nth_error l k = Some x.
Proof. intros H. destruct (nth_error l k) eqn:E; [eauto|]. apply nth_error_None in E. lia. Qed.

Lemma In_set_nth {A} k (v x : A) l : In x (set_nth k v l) -> x = v \/ In x l.
Proof. revert k; induction l; intros [|k] H; simpl in *; auto; destruct H; auto. apply IHl in H. tauto. Qed.

Lemma NoDup_set_nth_fresh k (v : nat) l : NoDup l -> ~ In v l -> NoDup (set_nth k v l).
Proof.
  revert k; induction l; intros [|k] Hn Hv; simpl in *; auto.
  - inversion Hn; subst. constructor; auto.
  - inversion Hn; subst. constructor.
    + intros Hi. apply In_set_nth in Hi. destruct Hi; [subst; tauto|tauto].
    + apply IHl; auto.
Qed.

(* from here on [simpl] must not unfold firstn/skipn/slice at numeral arguments *)
Local Arguments firstn : simpl never.
Local Arguments skipn : simpl never.
Local Arguments be_enc : simpl never.
Local Arguments be_val : simpl never.

Lemma point_eqb_spec A B : if point_eqb A B then A = B else A <> B.
Proof. destruct (point_eqb A B) eqn:E; [apply point_eqb_eq, E|]. intros ->. rewrite point_eqb_refl in E. discriminate. Qed.

Lemma secnonce_load_zeros P : secnonce_load P (zeros 132) = None.
Proof. reflexivity. Qed.

Section C13.
Variable P : Params.

(* partial_sign_core signs exactly when the nonce, the keypair, the cache and the session all load, the output
   pointer is there, and the keypair carries the very point (x and y) the nonce was generated for *)
Inductive core_ok (sec : bytes) (want : bool) (kp c se : option bytes) (v : Z) : Prop :=
| CoreOk k1 k2 pk kpb d cb ci seb si :
    secnonce_load P sec = Some (k1, k2, pk) -> want = true ->
    kp = Some kpb -> keypair_load P kpb = Some (d, pk) ->
    c = Some cb -> cache_load P cb = Some ci -> se = Some seb -> session_load P seb = Some si ->
    v = partial_sign_scalar P ci si k1 k2 pk d -> core_ok sec want kp c se v.

Lemma core_ok_signs sec want kp c se v :
  core_ok sec want kp c se v -> partial_sign_core P sec want kp c se = (true, 0, Some v).
Proof.
  intros [k1 k2 pk kpb d cb ci seb si H1 -> -> H2 -> H3 -> H4 ->]. unfold partial_sign_core.
  rewrite H1. cbn [negb]. rewrite H2, point_eqb_refl. cbn [negb]. rewrite H3, H4. reflexivity.
Qed.

Lemma partial_sign_core_cases sec want kp c se :
  (exists v, core_ok sec want kp c se v) \/ partial_sign_core P sec want kp c se = (false, 1, None).
Proof.
  unfold partial_sign_core.
  destruct (secnonce_load P sec) as [[[k1 k2] pk]|] eqn:E1; [|auto].
  destruct want; cbn [negb]; [|auto].
  destruct kp as [kpb|]; [|auto]. destruct c as [cb|]; [|auto]. destruct se as [seb|]; [|auto].
  destruct (keypair_load P kpb) as [[d kpk]|] eqn:E2; [|auto].
  destruct (point_eqb pk kpk) eqn:E3; cbn [negb]; [|auto]. apply point_eqb_eq in E3. subst kpk.
  destruct (cache_load P cb) as [ci|] eqn:E4; [|auto].
  destruct (session_load P seb) as [si|] eqn:E5; [|auto].
  left. eexists. econstructor; eauto.
Qed.

(* a partial_sign step on an existing slot: the slot is wiped whatever happens; either core_ok holds and the
   signature is returned and logged under the slot's identifier, or nothing is signed and one callback fires *)
Lemma step_sign_cases s k sec want kp c se :
  nth_error (slots s) k = Some sec ->
  let s' log := mkState (set_nth k (zeros 132) (slots s)) (rands s) (ids s) (next_id s) log in
  (exists v, core_ok sec want kp c se v /\
     step P s (OSign (Some k) want kp c se) =
       (s' ((slot_id s k, v) :: siglog s), mkOut 1 0 None (Some (psig_save v)))) \/
  step P s (OSign (Some k) want kp c se) =
    (s' (siglog s), mkOut 0 1 None (if want then Some (zeros 36) else None)).
Proof.
  intros E. cbv zeta. unfold step, get_slot. rewrite E.
  destruct (partial_sign_core_cases sec want kp c se) as [[v Hv]| ->]; [|right; reflexivity].
  left. exists v. split; [exact Hv|]. rewrite (core_ok_signs _ _ _ _ _ _ Hv).
  destruct Hv as [? ? ? ? ? ? ? ? ? _ -> _]. reflexivity.
Qed.

Lemma step_sign_wipes s k want kp c se :
  (k < length (slots s))%nat ->
  nth_error (slots (fst (step P s (OSign (Some k) want kp c se)))) k = Some (zeros 132).
Proof.
  intros Hk. destruct (nth_error_lt_ex _ _ Hk) as [sec E].
  destruct (step_sign_cases s k sec want kp c se E) as [[v [_ ->]]| ->]; apply nth_error_set_nth_eq, Hk.
Qed.

(* operations that put new content into slot k *)
Definition refills (k : nat) (o : op) : bool :=
  match o with
  | OGen (Some j) _ _ _ _ _ _ _ => Nat.eqb j k
  | OGenCtr (Some j) _ _ _ _ _ _ => Nat.eqb j k
  | OPoke j _ => Nat.eqb j k
  | _ => false
  end.

(* every step leaves the state alone, fills a slot it refills, or is a partial_sign on an existing slot *)
Lemma step_state_cases s o :
  fst (step P s o) = s \/
  (exists k content rands', (k < length (slots s))%nat /\ refills k o = true /\
                            fst (step P s o) = fill s k content rands') \/
  (exists k sec want kp c se, o = OSign (Some k) want kp c se /\ nth_error (slots s) k = Some sec).
Proof.
  destruct o as [[k|] ? ? ? ? ? ? ?|[k|] ? ? ? ? ? ?|[k|] ? ? ? ?|k ?]; cbn; auto;
    (destruct (nth_error (slots s) k) eqn:E; [|auto]);
    assert ((k < length (slots s))%nat) by (apply nth_error_Some; congruence); right.
  3: right; eauto 10.
  all: left; exists k; do 2 eexists; split; [eassumption|split; [apply Nat.eqb_refl|reflexivity]].
Qed.

Lemma step_keeps_zero s k o :
  refills k o = false -> nth_error (slots s) k = Some (zeros 132) ->
  nth_error (slots (fst (step P s o))) k = Some (zeros 132).
Proof.
  intros Hr Hz. destruct (step_state_cases s o) as [->|[(j&ct&r&_&Hj&->)|(j&sec&w&kp&c&se&->&E)]]; [exact Hz| |].
  - cbn. rewrite nth_error_set_nth_neq; [exact Hz|]. intros ->. congruence.
  - destruct (Nat.eq_dec k j) as [->|N]; [apply step_sign_wipes, nth_error_Some; congruence|].
    destruct (step_sign_cases s j sec w kp c se E) as [[v [_ ->]]| ->]; cbn; rewrite nth_error_set_nth_neq; auto.
Qed.

Lemma final_keeps_zero ops : forall s k,
  forallb (fun o => negb (refills k o)) ops = true -> nth_error (slots s) k = Some (zeros 132) ->
  nth_error (slots (final P s ops)) k = Some (zeros 132).
Proof.
  induction ops as [|o ops IH]; intros s k Hf Hz; simpl in *; auto.
  apply andb_true_iff in Hf. destruct Hf as [H1 H2]. apply negb_true_iff in H1.
  apply IH; auto. apply step_keeps_zero; auto.
Qed.

Definition logged (s : state) : list nat := map fst (siglog s).

Record wf (s : state) : Prop := {
  wf_len : length (ids s) = length (slots s);
  wf_ids_lt : forall i, In i (ids s) -> (i < next_id s)%nat;
  wf_log_lt : forall i, In i (logged s) -> (i < next_id s)%nat;
  wf_ids_nodup : NoDup (ids s);
  wf_log_nodup : NoDup (logged s);
  (* a slot whose generation event has already produced a signature is not loadable any more *)
  wf_dead : forall k sec, nth_error (slots s) k = Some sec -> In (slot_id s k) (logged s) -> secnonce_load P sec = None
}.

Lemma wf_init slots0 rands0 : wf (init_state slots0 rands0).
Proof.
  constructor; simpl.
  - apply seq_length.
  - intros i Hi. apply in_seq in Hi. lia.
  - intros i [].
  - apply seq_NoDup.
  - constructor.
  - intros k sec _ [].
Qed.

Lemma wf_fill s k content rands' : wf s -> (k < length (slots s))%nat -> wf (fill s k content rands').
Proof.
  intros W Hk. destruct W. constructor; simpl.
  - rewrite !set_nth_length. auto.
  - intros i Hi. apply In_set_nth in Hi. destruct Hi as [->|Hi]; [lia|]. apply wf_ids_lt0 in Hi. lia.
  - intros i Hi. apply wf_log_lt0 in Hi. lia.
  - apply NoDup_set_nth_fresh; auto. intros Hi. apply wf_ids_lt0 in Hi. lia.
  - auto.
  - intros j sec Hj Hin. unfold slot_id in Hin. simpl in Hin.
    destruct (Nat.eq_dec j k) as [->|Hne].
    + rewrite nth_set_nth_eq in Hin by lia. apply wf_log_lt0 in Hin. lia.
    + rewrite nth_set_nth_neq in Hin by auto. rewrite nth_error_set_nth_neq in Hj by auto.
      eapply wf_dead0; eauto.
Qed.

(* wiping slot k, and logging a signature under its identifier if its content was still loadable *)
Lemma wf_sign s k sec log : wf s -> nth_error (slots s) k = Some sec ->
  log = siglog s \/ (exists v, log = (slot_id s k, v) :: siglog s) /\ secnonce_load P sec <> None ->
  wf (mkState (set_nth k (zeros 132) (slots s)) (rands s) (ids s) (next_id s) log).
Proof.
  intros W E Hlog. assert (Hk : (k < length (slots s))%nat) by (apply nth_error_Some; congruence). destruct W.
  assert (Hin : forall i, In i (map fst log) -> i = slot_id s k /\ secnonce_load P sec <> None \/ In i (logged s)).
  { destruct Hlog as [->|[[v ->] L]]; [auto|]. intros i [<-|Hi]; auto. }
  assert (Hnd : NoDup (map fst log)).
  { destruct Hlog as [->|[[v ->] L]]; [auto|]. constructor; auto. intros Hi. apply L. eapply wf_dead0; eauto. }
  constructor; cbn; auto.
  - rewrite set_nth_length. auto.
  - intros i Hi. destruct (Hin i Hi) as [[-> _]|]; auto. apply wf_ids_lt0, nth_In. lia.
  - intros j sec' Hj Hi. destruct (Nat.eq_dec j k) as [->|Hne].
    + rewrite nth_error_set_nth_eq in Hj by auto. inversion Hj. apply secnonce_load_zeros.
    + rewrite nth_error_set_nth_neq in Hj by auto. assert ((j < length (slots s))%nat) by (apply nth_error_Some; congruence).
      destruct (Hin _ Hi) as [[Heq _]|]; [|eapply wf_dead0; eauto].
      apply (proj1 (NoDup_nth (ids s) O) wf_ids_nodup0) in Heq; lia.
Qed.

Lemma wf_step s o : wf s -> wf (fst (step P s o)).
Proof.
  intros W. destruct (step_state_cases s o) as [->|[(k&ct&r&Hk&_&->)|(k&sec&w&kp&c&se&->&E)]];
    [exact W|apply wf_fill; assumption|].
  destruct (step_sign_cases s k sec w kp c se E) as [[v [Hv ->]]| ->]; apply (wf_sign s k sec); auto.
  right. split; [eauto|]. destruct Hv. congruence.
Qed.

Lemma wf_final ops : forall s, wf s -> wf (final P s ops).
Proof. induction ops; intros s W; simpl; auto. apply IHops. apply wf_step. auto. Qed.

Lemma ng_secnonce_fail r : ng_ret r = false -> ng_secnonce r = zeros 132.
Proof. destruct r as [z|ok k1 k2 pk]; simpl; auto. intros ->. reflexivity. Qed.

Lemma ng_ret_done r : ng_ret r = true -> exists k1 k2 pk, r = NgDone true k1 k2 pk.
Proof. destruct r as [z|[] k1 k2 pk]; try discriminate. eauto. Qed.

(* nonce_gen_internal runs to the end only past every check; what it then returns *)
Lemma nonce_gen_internal_inv wp inp sk pko msg c ex ok k1 k2 pk :
  nonce_gen_internal P wp inp sk pko msg c ex = NgDone ok k1 k2 pk ->
  wp = true /\
  ok = match sk with Some s => match seckey_of_b32 P s with Some _ => true | None => false end | None => true end /\
  exists o aggpk, pko = Some o /\ pk_load o = Some pk /\
    match c with
    | None => aggpk = None
    | Some cb => exists ci, cache_load P cb = Some ci /\ aggpk = Some (fe_to_b32 (px (c_pk ci)))
    end /\
    (k1, k2) = nonce_fn_musig P inp msg sk (ser33 pk) aggpk ex.
Proof.
  unfold nonce_gen_internal. destruct wp; cbn [negb]; [|discriminate]. destruct pko as [o|]; [|discriminate].
  destruct (match c with None => Some None | Some c0 => _ end) as [a|] eqn:A; [|discriminate].
  destruct (pk_load o) as [pk'|] eqn:EL; [|discriminate].
  destruct (nonce_fn_musig P inp msg sk (ser33 pk') a ex) as [x y] eqn:F. intros H. inversion H; subst.
  split; [reflexivity|]. split; [reflexivity|]. exists o, a.
  split; [reflexivity|]. split; [exact EL|]. split; [|symmetry; exact F].
  destruct c as [cb|]; [destruct (cache_load P cb) as [ci|]|]; inversion A; eauto.
Qed.

Lemma skipn_68_secnonce k1 k2 pk : skipn 68 (secnonce_save k1 k2 pk) = pk_obj pk.
Proof.
  unfold secnonce_save, sc_to_b32. rewrite 2 app_assoc.
  apply skipn_app_exact. rewrite !app_length, !be_enc_length. reflexivity.
Qed.

Lemma nonce_gen_sec_contract before wp rand sk pko msg c ex :
  let o := nonce_gen_sec P true before wp rand sk pko msg c ex in
  (forall r, rand = Some r -> is_zero_bytes r = true -> ng_r o = false /\ ng_i o = 0 /\ ng_sec o = zeros 132) /\
  (ng_r o = true -> ng_rand o = Some (zeros 32) /\ rand <> None) /\
  (ng_r o = false -> ng_sec o = zeros 132 /\ ng_rand o = rand) /\
  (ng_r o = true -> exists k1 k2 pk obj, pko = Some obj /\ pk_load obj = Some pk /\
                    ng_sec o = secnonce_save k1 k2 pk /\ skipn 68 (ng_sec o) = pk_obj pk).
Proof.
  unfold nonce_gen_sec. simpl. destruct rand as [r|]; simpl.
  2: { repeat split; try discriminate; auto. }
  destruct (is_zero_bytes r) eqn:Z; simpl.
  { repeat split; try discriminate; auto. }
  remember (nonce_gen_internal P wp r sk pko msg c ex) as res.
  split; [|split; [|split]].
  - intros r1 H1 H2. inversion H1; subst. congruence.
  - intros ->. split; [reflexivity|discriminate].
  - intros H. split; [apply ng_secnonce_fail; auto|rewrite H; reflexivity].
  - intros H. destruct (ng_ret_done _ H) as (k1&k2&pk&->).
    destruct (nonce_gen_internal_inv _ _ _ _ _ _ _ _ _ _ _ (eq_sym Heqres)) as (_&_&obj&a&E1&E2&_).
    exists k1, k2, pk, obj. simpl. auto using skipn_68_secnonce.
Qed.

(* a nonce_gen step on an existing slot *)
Lemma step_gen_eq s k before wp ri sk pko msg c ex :
  nth_error (slots s) k = Some before ->
  let o := nonce_gen_sec P true before wp (get_rand s ri) sk pko msg c ex in
  step P s (OGen (Some k) wp ri sk pko msg c ex) =
  (fill s k (ng_sec o) match ri, get_rand s ri, ng_rand o with
                       | Some i, Some _, Some nb => set_nth i nb (rands s)
                       | _, _, _ => rands s
                       end,
   mkOut (b2z (ng_r o)) (ng_i o) match get_rand s ri with Some _ => ng_rand o | None => None end None).
Proof. intros E. unfold step, get_slot. rewrite E. reflexivity. Qed.
End C13.

(* the full 64-bit counter enters the hash *)
Lemma counter_buf_inj c c' : 0 <= c < 2 ^ 64 -> 0 <= c' < 2 ^ 64 -> counter_buf c = counter_buf c' -> c = c'.
Proof.
  unfold counter_buf. intros H1 H2 H. apply app_inv_tail in H.
  apply (f_equal be_val) in H. rewrite !be_val_enc in H; auto.
Qed.

Lemma counter_buf_plus_2_32 c : 0 <= c -> c + 2 ^ 32 < 2 ^ 64 -> counter_buf c <> counter_buf (c + 2 ^ 32).
Proof. intros H1 H2 H. apply counter_buf_inj in H; lia. Qed.

Lemma counter_buf_length c : length (counter_buf c) = 32%nat.
Proof. unfold counter_buf. rewrite app_length, be_enc_length, zeros_length. reflexivity. Qed.

Section C12.
Variable P : Params.
Let n := cn P.

(* adapt / extract are inverse at the scalar level (pure arithmetic mod n, n > 0) *)
Lemma adapt_extract_scalar s t par : 0 < n -> 0 <= t < n -> (par = 0 \/ par = 1) ->
  extract_scalar P (adapt_scalar P s t par) s par = t.
Proof.
  intros Hn Ht Hp. apply (eqm_small (cn P)); [|exact Ht|].
  - unfold extract_scalar. destruct (par =? 0); [apply sc_neg_range|apply sc_add_range]; exact Hn.
  - unfold extract_scalar, adapt_scalar, sc_add, sc_neg. destruct Hp as [-> | ->]; cbn [Z.eqb]; eqm_solve (cn P).
Qed.

Lemma extract_adapt_scalar s' s par : 0 < n -> 0 <= s' < n -> (par = 0 \/ par = 1) ->
  adapt_scalar P s (extract_scalar P s' s par) par = s'.
Proof.
  intros Hn Hs Hp. apply (eqm_small (cn P)); [apply sc_add_range, Hn|exact Hs|].
  unfold extract_scalar, adapt_scalar, sc_add, sc_neg. destruct Hp as [-> | ->]; cbn [Z.eqb]; eqm_solve (cn P).
Qed.

(* API level: adapt a pre-signature (rx || s) with t, then extract from (adapted, pre-signature): t comes back *)
Lemma adapt_extract_api rx s t par :
  0 <= s < n -> 0 <= t < n -> n <= 2 ^ 256 -> length rx = 32%nat -> (par = 0 \/ par = 1) ->
  let s' := adapt_scalar P s t par in
  musig_adapt P (Some (rx ++ be_enc 32 s)) (Some (be_enc 32 t)) par = [AInt 1; ABytes (rx ++ be_enc 32 s')] /\
  musig_extract_adaptor P (Some (rx ++ be_enc 32 s')) (Some (rx ++ be_enc 32 s)) par = [AInt 1; ABytes (be_enc 32 t)].
Proof.
  intros Hs Ht Hn Hl Hp. cbv zeta.
  assert (Hs' : 0 <= adapt_scalar P s t par < n) by (apply sc_add_range; lia).
  unfold musig_adapt, musig_extract_adaptor.
  assert (Hpar : negb ((par =? 0) || (par =? 1)) = false) by (destruct Hp as [-> | ->]; reflexivity).
  rewrite Hpar.
  rewrite !(skipn_app_exact rx _ 32 Hl), (firstn_app_exact rx _ 32 Hl), !(sc_of_b32_enc P) by auto.
  simpl. split; auto.
  unfold sc_to_b32. rewrite adapt_extract_scalar by (auto; lia). reflexivity.
Qed.

(* the nonce hash input is the BIP-327 NonceGen layout *)
Lemma xor_bytes_comm a b : xor_bytes a b = xor_bytes b a.
Proof.
  unfold xor_bytes. revert b. induction a as [|x a IH]; intros [|y b]; simpl; auto.
  rewrite Z.lxor_comm. f_equal. apply IH.
Qed.

Local Transparent nonce_fn_musig.
Lemma nonce_fn_eq_spec rand' sk pk33 aggpk msg extra :
  length pk33 = 33%nat ->
  (forall a, aggpk = Some a -> length a = 32%nat) ->
  (forall m, msg = Some m -> length m = 32%nat) ->
  (forall e, extra = Some e -> length e = 32%nat) ->
  nonce_fn_musig P rand' msg sk pk33 aggpk extra =
  (Bip327.nonce_gen_k P rand' sk pk33 aggpk msg extra 1, Bip327.nonce_gen_k P rand' sk pk33 aggpk msg extra 2).
Proof.
  intros Lp La Lm Le.
  assert (R : nonce_rand rand' sk = match sk with Some s => xor_bytes s (tagged_hash Bip327.bip_tag_aux rand') | None => rand' end).
  { unfold nonce_rand. destruct sk; auto. apply xor_bytes_comm. }
  assert (I : forall i, (i = 0 \/ i = 1) ->
     nonce_hash_input (nonce_rand rand' sk) pk33 aggpk msg extra i =
     match sk with Some s => xor_bytes s (tagged_hash Bip327.bip_tag_aux rand') | None => rand' end
       ++ Bip327.bytes_k 1 (Bip327.blen pk33) ++ pk33 ++ Bip327.opt_len_prefixed 1 aggpk
       ++ match msg with None => Bip327.bytes_k 1 0 | Some mm => Bip327.bytes_k 1 1 ++ Bip327.bytes_k 8 (Bip327.blen mm) ++ mm end
       ++ Bip327.opt_len_prefixed 4 extra ++ Bip327.bytes_k 1 (i + 1 - 1)).
  { intros i Hi. rewrite R. unfold nonce_hash_input, nonce_helper, Bip327.opt_len_prefixed, Bip327.bytes_k, Bip327.blen.
    rewrite Lp. f_equal.
    destruct aggpk as [a|]; [rewrite (La a eq_refl)|];
    (destruct msg as [m|]; [rewrite (Lm m eq_refl)|]);
    (destruct extra as [e|]; [rewrite (Le e eq_refl)|]);
    destruct Hi as [-> | ->]; reflexivity. }
  unfold nonce_fn_musig, Bip327.nonce_gen_k, sc_b, sc_of_b32, Bip327.int_of. cbn [fst].
  rewrite (I 0), (I 1) by auto. reflexivity.
Qed.
Local Opaque nonce_fn_musig.

(* key aggregation equals BIP-327 KeyAgg *)
Definition valid_pt (Q : point) : Prop :=
  match Q with Some (x, y) => 0 < x < 2 ^ 256 /\ 0 <= y < 2 ^ 256 | None => False end.

Lemma pk_load_obj Q : valid_pt Q -> pk_load (pk_obj Q) = Some Q.
Proof. destruct Q as [[x y]|]; [|intros []]. intros [Hx Hy]. apply pk_load_pk_obj; assumption. Qed.

Lemma pt_of_c64_pk_obj Q : valid_pt Q -> pt_of_c64 (pk_obj Q) = Q.
Proof.
  destruct Q as [[x y]|]; [|intros []]. intros [Hx Hy]. unfold pt_of_c64, pk_obj, fe_to_b32.
  rewrite firstn_be_enc, skipn_be_enc, !be_val_enc32 by lia. reflexivity.
Qed.

Lemma pubnonce_load_save A B : valid_pt A -> valid_pt B -> pubnonce_load (pubnonce_save A B) = Some (A, B).
Proof.
  intros VA VB. unfold pubnonce_load, pubnonce_save.
  rewrite (firstn_app_len magic_pubnonce). cbn [bytes_eqb magic_pubnonce Z.eqb Pos.eqb andb].
  rewrite (slice_app_mid magic_pubnonce (pk_obj A) (pk_obj B) 4 64 eq_refl (pk_obj_length A)).
  rewrite app_assoc, (slice_app_end _ (pk_obj B) 68 64) by (rewrite ?app_length, ?pk_obj_length; reflexivity).
  rewrite !pt_of_c64_pk_obj by assumption. reflexivity.
Qed.

Lemma pk_obj_inj Q R : valid_pt Q -> valid_pt R -> pk_obj Q = pk_obj R -> Q = R.
Proof.
  intros HQ HR H. apply pk_load_obj in HQ. apply pk_load_obj in HR. rewrite H in HQ. congruence.
Qed.

Lemma ser33_cbytes Q : Q <> None -> ser33 Q = Bip327.cbytes Q.
Proof.
  destruct Q as [[x y]|]; [|congruence]. intros _. unfold ser33, Bip327.cbytes, Bip327.has_even_y, Bip327.xbytes, Bip327.bytes_k, fe_to_b32.
  simpl. destruct (Z.odd y); reflexivity.
Qed.

Lemma valid_not_None Q : valid_pt Q -> Q <> None.
Proof. destruct Q; simpl; [discriminate|tauto]. Qed.

Fixpoint second_pt (first : point) (rest : list point) : point :=
  match rest with
  | [] => None
  | Q :: r => if point_eqb first Q then second_pt first r else Q
  end.

Lemma second_pt_In F rest : second_pt F rest = None \/ In (second_pt F rest) rest.
Proof. induction rest as [|Q r IH]; simpl; auto. destruct (point_eqb F Q); [destruct IH; auto|auto]. Qed.

Lemma find_second_pts F rest : valid_pt F -> Forall valid_pt rest ->
  find_second (pk_obj F) (map pk_obj rest) = inl (second_pt F rest).
Proof.
  intros HF HR. induction HR as [|Q r HQ HR IH]; simpl; auto.
  pose proof (point_eqb_spec F Q) as E. destruct (point_eqb F Q).
  - subst Q. rewrite bytes_eqb_refl. apply IH.
  - rewrite bytes_eqb_neq by (intros H; apply E, pk_obj_inj; auto). rewrite pk_load_obj by auto. reflexivity.
Qed.

Lemma load_all_pts pts : Forall valid_pt pts -> load_all (map pk_obj pts) = Some pts.
Proof. intros H. induction H as [|Q r HQ HR IH]; simpl; auto. rewrite pk_load_obj by auto. rewrite IH. reflexivity. Qed.

Lemma pks_hash_spec pts : Forall valid_pt pts -> pks_hash_of pts = Bip327.hash_keys (map (Bip327.cbytes) pts).
Proof.
  intros H. unfold pks_hash_of, Bip327.hash_keys. f_equal.
  induction H as [|Q r HQ HR IH]; simpl; auto. rewrite IH. rewrite ser33_cbytes by (apply valid_not_None; auto). reflexivity.
Qed.

Definition cbytes_inj_on (pts : list point) : Prop :=
  forall A B, In A pts -> In B pts -> Bip327.cbytes A = Bip327.cbytes B -> A = B.

Local Arguments Bip327.cbytes : simpl never.
Lemma second_key_from_spec F r : (forall Q, In Q r -> Q <> None /\ (Bip327.cbytes Q = Bip327.cbytes F -> F = Q)) ->
  Bip327.get_second_key_from (Bip327.cbytes F) (map Bip327.cbytes r) = Bip327.cbytes_ext (second_pt F r).
Proof.
  induction r as [|Q r IH]; intros Sub; [reflexivity|].
  cbn [map Bip327.get_second_key_from second_pt]. destruct (Sub Q (or_introl eq_refl)) as [NQ IQ].
  pose proof (point_eqb_spec F Q) as E. destruct (point_eqb F Q).
  - subst Q. rewrite bytes_eqb_refl. apply IH. intros; apply Sub; right; auto.
  - rewrite bytes_eqb_neq by (intros H; apply E, IQ, H). destruct Q; [reflexivity|congruence].
Qed.

Local Transparent keyaggcoef.
Lemma keyaggcoef_spec pts Q second :
  Forall valid_pt pts -> cbytes_inj_on pts -> In Q pts -> (second = None \/ In second pts) ->
  keyaggcoef P (pks_hash_of pts) Q second =
  Bip327.key_agg_coeff_internal P (map Bip327.cbytes pts) (Bip327.cbytes Q) (Bip327.cbytes_ext second).
Proof.
  intros V Inj HQ HS. unfold keyaggcoef, Bip327.key_agg_coeff_internal.
  assert (VQ : valid_pt Q) by (eapply (proj1 (Forall_forall _ _) V); eauto).
  rewrite <- pks_hash_spec by auto. rewrite <- ser33_cbytes by (apply valid_not_None; auto).
  destruct second as [s|]; simpl.
  - destruct HS as [HS|HS]; [discriminate|].
    pose proof (point_eqb_spec Q (Some s)) as E. destruct (point_eqb Q (Some s)).
    + subst Q. rewrite ser33_cbytes by discriminate. rewrite bytes_eqb_refl. reflexivity.
    + rewrite bytes_eqb_neq; [reflexivity|]. intros H. rewrite ser33_cbytes in H by (apply valid_not_None; auto).
      apply E, Inj; auto.
  - rewrite bytes_eqb_neq; [reflexivity|]. destruct Q as [[x y]|]; [|simpl in VQ; tauto].
    unfold ser33. destruct (Z.odd y); discriminate.
Qed.
Local Opaque keyaggcoef.

Theorem keyagg_eq_spec_lemma F rest wa wc :
  let pts := F :: rest in
  Forall valid_pt pts -> cbytes_inj_on pts ->
  musig_pubkey_agg P wa wc (Some (map pk_obj pts)) =
  match Bip327.key_agg P pts with
  | Some ctx => [AInt 1; out_opt wa (pk_obj (fst (even_y P (Bip327.ctx_Q ctx))));
                 out_opt wc (cache_save (mkCache (Bip327.ctx_Q ctx) (second_pt F rest)
                                                 (Bip327.hash_keys (map Bip327.cbytes pts)) 0 0))]
  | None => abstain
  end.
Proof.
  intros pts V Inj. unfold musig_pubkey_agg. subst pts. simpl map.
  inversion V as [|? ? VF VR]; subst.
  rewrite find_second_pts by auto.
  change (pk_obj F :: map pk_obj rest) with (map pk_obj (F :: rest)). rewrite load_all_pts by auto.
  unfold keyagg_point, Bip327.key_agg, psum.
  assert (SK : Bip327.get_second_key (map Bip327.cbytes (F :: rest)) = Bip327.cbytes_ext (second_pt F rest)).
  { cbn [map Bip327.get_second_key Bip327.get_second_key_from]. rewrite bytes_eqb_refl. apply second_key_from_spec.
    intros Q HQ. split; [apply valid_not_None; eapply (proj1 (Forall_forall _ _) VR); eauto|].
    intros H. symmetry. apply Inj; [right| left|]; auto. }
  erewrite (map_ext_in (fun Q => Curve.pmul P (keyaggcoef P _ Q _) Q)).
  2: { intros Q HQ. rewrite keyaggcoef_spec, <- SK; [reflexivity|auto..].
       destruct (second_pt_In F rest); auto. right. right. auto. }
  rewrite pks_hash_spec by auto.
  destruct (fold_left (Curve.padd P) _ None); reflexivity.
Qed.

(* tweaking equals BIP-327 ApplyTweak, for every tweak sequence *)
Definition cache_rel (ci : cache_i) (ctx : Bip327.keyagg_ctx) : Prop :=
  c_pk ci = Bip327.ctx_Q ctx /\
  ((c_parity ci = 0 /\ Bip327.ctx_gacc ctx = 1) \/ (c_parity ci = 1 /\ Bip327.ctx_gacc ctx = n - 1)) /\
  c_tweak ci = Bip327.ctx_tacc ctx /\ 0 <= Bip327.ctx_tacc ctx < n.

Lemma tweak_step_spec xonly ci ctx t32 :
  2 < n -> bytes_okP t32 -> cache_rel ci ctx ->
  match tweak_step P xonly ci t32, Bip327.apply_tweak P ctx t32 xonly with
  | Some ci', Some ctx' => cache_rel ci' ctx' /\ c_second ci' = c_second ci /\ c_hash ci' = c_hash ci
  | None, None => True
  | _, _ => False
  end.
Proof.
  intros Hn Hb [RQ [RG [RT RB]]].
  unfold tweak_step, Bip327.apply_tweak, sc_of_b32, Bip327.int_of. fold n.
  pose proof (be_val_bound t32 Hb) as [Hv _].
  destruct (n <=? be_val t32) eqn:Ov; auto.
  apply Z.leb_gt in Ov. rewrite (Z.mod_small (be_val t32) n) by lia.
  unfold Bip327.has_even_y, Bip327.gmul. rewrite <- RQ, negb_involutive.
  replace ((-1) mod n) with (n - 1) by (symmetry; exact (mneg_small n ltac:(lia) 1 ltac:(lia))).
  (* g = n - 1 when the key is negated, g = 1 otherwise; gacc' = g gacc, tacc' = t + g tacc *)
  set (flip := xonly && Z.odd (py (c_pk ci))).
  replace (if (if flip then n - 1 else 1) =? 1 then c_pk ci else Curve.pneg P (c_pk ci))
    with (if flip then Curve.pneg P (c_pk ci) else c_pk ci)
    by (destruct flip; [replace (n - 1 =? 1) with false by lia|]; reflexivity).
  destruct (Curve.padd P _ (Curve.pmul P (be_val t32) (Curve.G P))); auto.
  split; [|auto]. unfold cache_rel, sc_add, sc_neg.
  cbn [c_pk c_parity c_tweak c_second c_hash Bip327.ctx_Q Bip327.ctx_gacc Bip327.ctx_tacc]. fold n. rewrite RT.
  split; auto. split; [|split; [destruct flip; eqm_solve n|apply Z.mod_pos_bound; lia]].
  destruct flip, RG as [[-> ->] | [-> ->]]; [right|left|left|right]; split; auto;
    (apply (eqm_small n); [apply Z.mod_pos_bound; lia|lia|eqm_solve n]).
Qed.

Fixpoint tweak_steps (ci : cache_i) (tw : list (bytes * bool)) : option cache_i :=
  match tw with
  | [] => Some ci
  | (t, x) :: r => match tweak_step P x ci t with Some c => tweak_steps c r | None => None end
  end.

Lemma tweak_steps_spec tw : forall ci ctx,
  2 < n -> Forall (fun tx => bytes_okP (fst tx)) tw -> cache_rel ci ctx ->
  match tweak_steps ci tw, Bip327.apply_tweaks P ctx tw with
  | Some ci', Some ctx' => cache_rel ci' ctx' /\ c_second ci' = c_second ci /\ c_hash ci' = c_hash ci
  | None, None => True
  | _, _ => False
  end.
Proof.
  induction tw as [|[t x] r IH]; intros ci ctx Hn Hb R; simpl; auto.
  inversion Hb; subst. simpl in *.
  pose proof (tweak_step_spec x ci ctx t Hn H1 R) as S.
  destruct (tweak_step P x ci t) as [ci1|], (Bip327.apply_tweak P ctx t x) as [ctx1|]; auto; try contradiction.
  destruct S as [R1 [S2 S3]].
  specialize (IH ci1 ctx1 Hn H2 R1).
  destruct (tweak_steps ci1 r), (Bip327.apply_tweaks P ctx1 r); auto.
  destruct IH as [A [B C]]. split; [exact A|split; congruence].
Qed.

Lemma cache_rel_init Q second h : 0 < n -> cache_rel (mkCache Q second h 0 0) (Bip327.mkCtx Q 1 0).
Proof. intros H. unfold cache_rel. simpl. repeat split; auto; lia. Qed.
End C12.

Section C12_sign.
Variable P : Params.

(* partial signing computes BIP-327 Sign:  s = k1 + b k2 + e a d  with the BIP's sign conventions
   (k negated for an odd final nonce; d' multiplied by g . gacc) *)
Lemma partial_sign_eq_spec_lemma sec k1 k2 pk kp d c ci se si ctx R :
  secnonce_load P sec = Some (k1, k2, pk) -> keypair_load P kp = Some (d, pk) ->
  cache_load P c = Some ci -> session_load P se = Some si ->
  cache_rel P ci ctx -> (s_parity si =? 0) = Bip327.has_even_y R ->
  partial_sign_core P sec true (Some kp) (Some c) (Some se) =
  (true, 0, Some (Bip327.sign_s P ctx R (s_b si) (s_e si) (keyaggcoef P (c_hash ci) pk (c_second ci)) k1 k2 d)).
Proof.
  intros L1 L2 L3 L4 [RQ [RG [RT RB]]] RP.
  erewrite core_ok_signs by (econstructor; eauto). f_equal. f_equal.
  unfold partial_sign_scalar, Bip327.sign_s, sc_add, sc_mul, sc_neg, madd, mmul, mneg, Bip327.has_even_y in *.
  rewrite <- RQ. rewrite RP.
  set (mu := keyaggcoef P (c_hash ci) pk (c_second ci)).
  destruct RG as [[-> ->] | [-> ->]]; destruct (Z.odd (py (c_pk ci))); destruct (Z.odd (py R));
    cbn [negb xorb Z.eqb Pos.eqb]; eqm_solve (cn P).
Qed.

(* aggregation: s = sum s_i + e . g . tacc, sig = xbytes(R) || s *)
Lemma fold_sc_add_eqm ss : forall acc, eqm (cn P) (fold_left (sc_add P) ss acc) (acc + fold_left Z.add ss 0).
Proof.
  induction ss as [|x r IH]; intros acc; cbn [fold_left]; [apply eq_eqm; lia|].
  assert (E : forall a, fold_left Z.add r a = a + fold_left Z.add r 0).
  { clear. induction r as [|y r IH]; intros a; cbn [fold_left]; [lia|]. rewrite (IH (a + y)), (IH (0 + y)). lia. }
  rewrite IH, (E (0 + x)). unfold sc_add. rewrite madd_eqm. apply eq_eqm. lia.
Qed.

Lemma fold_sc_add_range ss : forall acc, 0 < cn P -> ss <> [] -> 0 <= fold_left (sc_add P) ss acc < cn P.
Proof.
  induction ss as [|x [|y r] IH]; intros acc Hn NE; [congruence|apply sc_add_range, Hn|].
  apply (IH (sc_add P acc x) Hn). discriminate.
Qed.

Lemma psig_load_save s : 0 <= s < cn P -> cn P <= 2 ^ 256 -> psig_load P (psig_save s) = Some s.
Proof.
  intros Hs Hn. unfold psig_load, psig_save, sc_to_b32.
  rewrite (firstn_app_len magic_psig), (skipn_app_len magic_psig). unfold sc_b. rewrite (sc_of_b32_enc P) by auto. reflexivity.
Qed.

Lemma sum_psigs_objs ss : forall acc, Forall (fun s => 0 <= s < cn P) ss -> cn P <= 2 ^ 256 ->
  sum_psigs P (map psig_save ss) acc = Some (fold_left (sc_add P) ss acc).
Proof.
  induction ss as [|x r IH]; intros acc H Hn; cbn [map sum_psigs fold_left]; auto.
  inversion H; subst. rewrite psig_load_save by auto. apply IH; auto.
Qed.

Lemma session_s_part_eqm ci ctx e : cache_rel P ci ctx ->
  eqm (cn P) (session_s_part P ci e)
      (e * (if Bip327.has_even_y (Bip327.ctx_Q ctx) then 1 else cn P - 1) * Bip327.ctx_tacc ctx).
Proof.
  intros [RQ [_ [RT RB]]]. unfold session_s_part, Bip327.has_even_y. rewrite <- RQ, RT.
  destruct (Bip327.ctx_tacc ctx =? 0) eqn:E.
  - apply Z.eqb_eq in E. rewrite E. apply eq_eqm. ring.
  - unfold sc_mul, sc_neg. destruct (Z.odd (py (c_pk ci))); cbn [negb]; eqm_solve (cn P).
Qed.

Theorem partial_sig_agg_eq_spec_lemma se si ci ctx R ss :
  session_load P se = Some si -> cache_rel P ci ctx ->
  s_part si = session_s_part P ci (s_e si) -> s_fin si = Bip327.xbytes R ->
  ss <> [] -> Forall (fun s => 0 <= s < cn P) ss -> 0 < cn P <= 2 ^ 256 ->
  musig_partial_sig_agg P (Some se) (Some (map psig_save ss)) =
  [AInt 1; ABytes (Bip327.partial_sig_agg P ctx R (s_e si) ss)].
Proof.
  intros L R1 SP SF NE V Hn. unfold musig_partial_sig_agg.
  destruct ss as [|s0 r]; [congruence|]. cbn [map]. rewrite L.
  change (psig_save s0 :: map psig_save r) with (map psig_save (s0 :: r)).
  rewrite sum_psigs_objs by (auto; lia).
  unfold Bip327.partial_sig_agg, Bip327.bytes_k, sc_to_b32. rewrite SF. repeat f_equal.
  apply (eqm_small (cn P)); [apply fold_sc_add_range; [lia|exact NE]|apply Z.mod_pos_bound; lia|].
  rewrite eqm_mod, fold_sc_add_eqm, SP, (session_s_part_eqm ci ctx _ R1). apply eq_eqm. ring.
Qed.

(* nonce aggregation and session creation equal BIP-327 NonceAgg / GetSessionValues *)
Lemma ser_ext_cbytes R : ge_serialize_ext R = Bip327.cbytes_ext R.
Proof.
  destruct R as [[x y]|]; [|reflexivity]. unfold ge_serialize_ext. cbn [Bip327.cbytes_ext].
  apply ser33_cbytes. discriminate.
Qed.

Lemma nonce_process_internal_spec R1 R2 Q m :
  nonce_process_internal P R1 R2 (Bip327.xbytes Q) m =
  (b2z (Z.odd (py (Bip327.session_R P R1 R2 Q m))), Bip327.xbytes (Bip327.session_R P R1 R2 Q m), Bip327.session_b P R1 R2 Q m).
Proof.
  unfold nonce_process_internal, Bip327.session_R, Bip327.session_b, Bip327.aggnonce_bytes, sc_b, sc_of_b32, Bip327.int_of.
  cbn [fst snd]. rewrite !ser_ext_cbytes. rewrite <- !app_assoc. reflexivity.
Qed.

Lemma nonce_process_eq_spec_lemma an m c ci R1 R2 :
  cache_load P c = Some ci -> aggnonce_load an = Some (R1, R2) ->
  let Q := c_pk ci in
  let R := Bip327.session_R P R1 R2 Q m in
  musig_nonce_process P (Some an) (Some m) (Some c) None =
  [AInt 1; ABytes (session_save (mkSession (b2z (Z.odd (py R))) (Bip327.xbytes R) (Bip327.session_b P R1 R2 Q m)
                                           (Bip327.session_e P R1 R2 Q m)
                                           (session_s_part P ci (Bip327.session_e P R1 R2 Q m))))].
Proof.
  intros L1 L2. cbv zeta. unfold musig_nonce_process. rewrite L1, L2.
  change (fe_to_b32 (px (c_pk ci))) with (Bip327.xbytes (c_pk ci)).
  rewrite nonce_process_internal_spec. reflexivity.
Qed.

Lemma sum_pubnonces_spec pubs : forall acc, Forall (fun R => valid_pt (fst R) /\ valid_pt (snd R)) pubs ->
  sum_pubnonces P (map (fun R => pubnonce_save (fst R) (snd R)) pubs) acc =
  Some (fold_left (Curve.padd P) (map fst pubs) (fst acc), fold_left (Curve.padd P) (map snd pubs) (snd acc)).
Proof.
  induction pubs as [|[A B] r IH]; intros [a b] V; cbn [map sum_pubnonces fold_left fst snd]; auto.
  inversion V as [|? ? [VA VB] VR]; subst. cbn [fst snd] in *.
  rewrite pubnonce_load_save by assumption. apply IH. auto.
Qed.
End C12_sign.

Section CbytesInj.
Variable P : Params.
Hypothesis MF : MathFacts P.
Hypothesis Hp : cp P < 2 ^ 256.

Lemma p_odd : Z.odd (cp P) = true.
Proof.
  pose proof (mf_p_3mod4 P MF) as H4. rewrite Zodd_mod. apply Zeq_is_eq_bool.
  rewrite (Z.div_mod (cp P) 4), H4 by lia. replace (4 * (cp P / 4) + 3) with (1 + (2 * (cp P / 4) + 1) * 2) by ring.
  apply Z.mod_add. lia.
Qed.

Lemma cbytes_inj_curve A B : oc P A -> oc P B -> A <> None -> B <> None -> Bip327.cbytes A = Bip327.cbytes B -> A = B.
Proof.
  destruct A as [[x y]|]; [|congruence]. destruct B as [[x' y']|]; [|congruence]. intros HA HB _ _ H.
  apply on_curve_Some in HA, HB. destruct HA as (Hx&Hy&HA), HB as (Hx'&Hy'&HB).
  (* [injection H] would unfold be_enc 32 *)
  unfold Bip327.cbytes, Bip327.xbytes, Bip327.bytes_k, Bip327.has_even_y in H. cbn [px py] in H.
  pose proof (f_equal (hd 0) H) as Hpar. apply (f_equal (fun l => be_val (tl l))) in H. cbn [hd tl] in Hpar, H.
  rewrite !be_val_enc in H by (rewrite pow256_32; clear HA HB; lia). subst x'.
  f_equal. f_equal. apply (sq_parity_unique (cp P)); auto using p_odd, (mf_p_prime P MF); [congruence|].
  destruct (Z.odd y), (Z.odd y'); cbn in Hpar; congruence.
Qed.

Lemma cbytes_inj_on_curve pts : Forall (fun Q => oc P Q /\ Q <> None) pts -> cbytes_inj_on pts.
Proof.
  intros V A B HA HB H. rewrite Forall_forall in V. destruct (V A HA), (V B HB). apply cbytes_inj_curve; auto.
Qed.
End CbytesInj.

Section Honest.
Variable P : Params.
Hypothesis MF : MathFacts P.
Notation G := (Curve.G P).

(* every point occurring in the verification of an honest partial signature is a multiple of G, so the
   verification equation reduces to a congruence between scalars *)
Lemma honest_partial_sig_verifies_lemma ci si d k1 k2 :
  0 <= d < cn P -> 0 <= k1 < cn P -> 0 <= k2 < cn P ->
  0 <= s_b si < cn P -> 0 <= s_e si < cn P ->
  let pk := Curve.pmul P d G in
  let s := partial_sign_scalar P ci si k1 k2 pk d in
  partial_sig_verify_core P ci si s (Curve.pmul P k1 G) (Curve.pmul P k2 G) pk = true.
Proof.
  intros Hd Hk1 Hk2 Hb He pk s.
  pose proof (n_pos P MF) as Hn. pose proof (fun x => Z.mod_pos_bound x (cn P) Hn) as Hmod.
  unfold partial_sig_verify_core. fold pk.
  set (mu := keyaggcoef P (c_hash ci) pk (c_second ci)).
  set (fl := xorb (Z.odd (py (c_pk ci))) (c_parity ci =? 1)).
  set (e := if fl then sc_neg P (sc_mul P (s_e si) mu) else sc_mul P (s_e si) mu).
  assert (He' : 0 <= e < cn P) by (destruct fl; apply Hmod).
  (* R1 + b R2 = (k1 + b k2) G, negated for an odd final nonce *)
  set (re := madd (cn P) k1 (mmul (cn P) (s_b si) k2)).
  rewrite <- (pmul_mmul P MF), <- (pmul_madd P MF) by (lia || apply Hmod). fold re.
  set (re' := if s_parity si =? 0 then re else mneg (cn P) re).
  assert (Hre' : 0 <= re' < cn P) by (unfold re'; destruct (s_parity si =? 0); apply Hmod).
  replace (if s_parity si =? 0 then Curve.pmul P re G else Curve.pneg P (Curve.pmul P re G)) with (Curve.pmul P re' G)
    by (unfold re'; destruct (s_parity si =? 0); [reflexivity|apply (pmul_mneg P MF), Hmod]).
  unfold pk. rewrite <- (pmul_mmul P MF) by lia. unfold sc_neg at 1.
  rewrite <- !(pmul_madd P MF) by (lia || apply Hmod).
  (* the scalar is 0 mod n *)
  rewrite (pmul_eqm P MF _ 0); [reflexivity|apply Hmod|lia|].
  unfold re', re, e, s, partial_sign_scalar, sc_add, sc_mul, sc_neg. fold pk. fold mu. fold fl.
  destruct fl; destruct (s_parity si =? 0); cbn [negb]; eqm_solve (cn P).
Qed.
End Honest.
