(* Output lengths of Spec/Sha256.v, irrelevance of the fuel of sha_blocks once it covers the input,
   and hashing from the state reached after a first whole block (tagged-hash midstates). *)
From Coq Require Import ZArith List Lia Arith.
Require Import Spec.Bytes Spec.Sha256 Proofs.BytesLemmas.
Import ListNotations.
Local Open Scope Z_scope.

Lemma sha_round_len8 s kw : length s = 8%nat -> length (sha_round s kw) = 8%nat.
Proof. intros H. do 9 (destruct s as [|? s]; try discriminate). destruct kw. reflexivity. Qed.
Lemma sha_rounds_len8 l : forall s, length s = 8%nat -> length (fold_left sha_round l s) = 8%nat.
Proof. induction l; intros; simpl; auto. apply IHl, sha_round_len8; auto. Qed.
Lemma sha_compress_len8 s b : length s = 8%nat -> length (sha_compress s b) = 8%nat.
Proof. intros H. unfold sha_compress. rewrite map_length, combine_length, sha_rounds_len8, H by auto. reflexivity. Qed.
Lemma sha_blocks_len8 f : forall s bs, length s = 8%nat -> length (sha_blocks f s bs) = 8%nat.
Proof. induction f; intros; simpl; auto. destruct (Nat.ltb (length bs) 64); auto. apply IHf, sha_compress_len8; auto. Qed.
Lemma length_sha_out s : length (sha_out s) = (4 * length s)%nat.
Proof. unfold sha_out. induction s; cbn [flat_map]; [reflexivity|]. rewrite app_length, IHs, be_enc_length. cbn [length]. lia. Qed.
Lemma length_sha256_from s pre bs : length s = 8%nat -> length (sha256_from s pre bs) = 32%nat.
Proof. intros. unfold sha256_from. rewrite length_sha_out, sha_blocks_len8; auto. Qed.
Lemma length_sha256 bs : length (sha256 bs) = 32%nat.
Proof. apply length_sha256_from. reflexivity. Qed.
Lemma length_tagged_hash tag msg : length (tagged_hash tag msg) = 32%nat.
Proof. apply length_sha256. Qed.

Lemma div64_ge n : (64 <= n -> 1 <= n / 64)%nat.
Proof. intros. apply Nat.div_le_lower_bound; lia. Qed.
Lemma div64_sub n : (64 <= n -> (n - 64) / 64 = n / 64 - 1)%nat.
Proof. intros H. replace n with ((n - 64) + 1 * 64)%nat at 2 by lia. rewrite Nat.div_add by lia. lia. Qed.

Lemma sha_blocks_short f s bs : (length bs < 64)%nat -> sha_blocks f s bs = s.
Proof. intros H. destruct f; [reflexivity|]. cbn [sha_blocks]. apply Nat.ltb_lt in H. rewrite H. reflexivity. Qed.
Lemma sha_blocks_step f s bs : (64 <= length bs)%nat ->
  sha_blocks (S f) s bs = sha_blocks f (sha_compress s (firstn 64 bs)) (skipn 64 bs).
Proof. intros H. cbn [sha_blocks]. apply Nat.ltb_ge in H. rewrite H. reflexivity. Qed.

(* one unit of fuel per 64-byte block is enough *)
Lemma sha_blocks_fuel2 f : forall g s bs, (length bs / 64 <= f)%nat -> (length bs / 64 <= g)%nat ->
  sha_blocks f s bs = sha_blocks g s bs.
Proof.
  induction f as [|f IH]; intros g s bs Hf Hg; destruct (Nat.lt_ge_cases (length bs) 64) as [Hl|Hl];
    try (rewrite !sha_blocks_short by assumption; reflexivity); pose proof (div64_ge _ Hl) as H1; [lia|].
  destruct g; [lia|]. rewrite !sha_blocks_step by assumption.
  apply IH; rewrite skipn_length, div64_sub by assumption; lia.
Qed.
Lemma sha_blocks_fuel f s bs : (length bs / 64 <= f)%nat -> sha_blocks f s bs = sha_blocks (length bs) s bs.
Proof. intros H. apply sha_blocks_fuel2; [assumption|]. apply Nat.div_le_upper_bound; lia. Qed.

Lemma sha_blocks_block s blk rest : length blk = 64%nat ->
  sha_blocks (length (blk ++ rest)) s (blk ++ rest) = sha_blocks (length rest) (sha_compress s blk) rest.
Proof.
  intros Hb. rewrite app_length, Hb. change (64 + length rest)%nat with (S (63 + length rest)).
  rewrite sha_blocks_step by (rewrite app_length; lia).
  rewrite (firstn_app_exact _ _ _ Hb), (skipn_app_exact _ _ _ Hb).
  apply sha_blocks_fuel, Nat.div_le_upper_bound; lia.
Qed.

Lemma sha256_from_block s blk rest pre : length blk = 64%nat ->
  sha256_from s pre (blk ++ rest) = sha256_from (sha_compress s blk) (pre + 64) rest.
Proof.
  intros Hb. unfold sha256_from.
  replace (pre + Z.of_nat (length (blk ++ rest))) with (pre + 64 + Z.of_nat (length rest))
    by (rewrite app_length, Hb; lia).
  rewrite <- app_assoc. f_equal. apply sha_blocks_block, Hb.
Qed.

(* BIP-340 tagged hash = hashing from the tag's midstate with 64 bytes already absorbed *)
Lemma tagged_hash_from_midstate tag msg : tagged_hash tag msg = sha256_from (tagged_midstate tag) 64 msg.
Proof.
  unfold tagged_hash, tagged_midstate, sha256. rewrite app_assoc.
  rewrite sha256_from_block by (rewrite app_length, !length_sha256; reflexivity). reflexivity.
Qed.
