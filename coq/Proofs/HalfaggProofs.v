(* Lemmas about Model/Halfagg.v (property C17).  None of them needs a fact about the curve: they are
   statements about the control and data flow of aggregation and about the rejection clauses of
   verification.  The only premise on the constants is 0 < n <= 2^256 (a scalar fits its 32 bytes). *)
From Coq Require Import ZArith List Bool Lia.
Require Import Spec.Params Spec.Field Spec.Curve Spec.Bytes Spec.Sha256 Model.Base Model.Schnorr Model.Halfagg.
Require Import Proofs.BytesLemmas Proofs.BaseLemmas.
Import ListNotations.
Local Open Scope Z_scope.

Lemma agg_len_ok_iff : forall len n,
  (len / 32 <=? 0) || (len / 32 - 1 <? n) = false <-> 32 <= len /\ 32 * (n + 1) <= len.
Proof.
  intros. rewrite orb_false_iff, Z.leb_gt, Z.ltb_ge.
  Z.div_mod_to_equations. lia.
Qed.

Lemma aggv_len_ok_iff : forall len n,
  (len / 32 <=? 0) || negb (len / 32 - 1 =? n) || negb (len mod 32 =? 0) = false <-> len = 32 * (n + 1) /\ 0 <= n.
Proof.
  intros. rewrite !orb_false_iff, !negb_false_iff, Z.leb_gt, !Z.eqb_eq.
  Z.div_mod_to_equations. lia.
Qed.

Definition item_bytes (it : item) : bytes := let '(r, pk, m, _) := it in r ++ pk ++ m.
Definition wf_item (it : item) : Prop := length (item_r it) = 32%nat.

Section HalfaggProofs.
Variable P : Params.
Hypothesis n_pos : 0 < cn P.
Hypothesis n_fits : cn P <= 2 ^ 256.

(* z_i, the randomizer of index i: 1 for the first signature, else the hash of everything written so far *)
Definition zf (i : Z) (pre' : bytes) : Z := if i =? 0 then 1 else hz P pre'.

(* sum_i z_i * s_i over the items, z_0 = 1 and z_i = H_tag(r_0||pk_0||m_0|| ... ||r_i||pk_i||m_i) mod n *)
Fixpoint agg_sum (l : list item) (pre : bytes) (i : Z) : Z :=
  match l with
  | [] => 0
  | (r, pk, m, sb) :: t =>
    let pre' := pre ++ r ++ pk ++ m in
    (if i =? 0 then 1 else hz P pre') * be_val sb + agg_sum t pre' (i + 1)
  end.

Lemma agg_sum_app : forall l1 l2 pre i,
  agg_sum (l1 ++ l2) pre i = agg_sum l1 pre i + agg_sum l2 (pre ++ flat_map item_bytes l1) (i + Z.of_nat (length l1)).
Proof.
  induction l1 as [|[[[r pk] m] sb] l1 IH]; intros l2 pre i.
  - cbn. rewrite app_nil_r, Z.add_0_r. reflexivity.
  - cbn [app agg_sum flat_map item_bytes length]. rewrite IH, <- !app_assoc.
    replace (i + 1 + Z.of_nat (length l1)) with (i + Z.of_nat (S (length l1))) by lia. lia.
Qed.

Lemma agg_step_z : forall pre i s r pk m sb,
  agg_step P (pre, i, s) (r, pk, m, sb) =
  (pre ++ r ++ pk ++ m, i + 1, (s + zf i (pre ++ r ++ pk ++ m) * be_val sb) mod cn P).
Proof.
  intros. unfold agg_step, zf, sc_add, madd, sc_mul, mmul, sc_of_b32. cbv zeta. cbn [fst]. f_equal.
  destruct (i =? 0).
  - rewrite Z.mul_1_l, Z.add_mod_idemp_r by lia. reflexivity.
  - rewrite Z.add_mod_idemp_r, (Z.mul_comm (hz P _)) by lia.
    rewrite <- Z.add_mod_idemp_r, Z.mul_mod_idemp_l, Z.add_mod_idemp_r by lia. reflexivity.
Qed.

(* the whole loop in closed form, from a reduced running scalar *)
Lemma agg_fold_closed : forall l pre i s,
  agg_fold P l (pre, i, s mod cn P) =
  (pre ++ flat_map item_bytes l, i + Z.of_nat (length l), (s + agg_sum l pre i) mod cn P).
Proof.
  induction l as [|[[[r pk] m] sb] l IH]; intros pre i s.
  - cbn. rewrite app_nil_r, !Z.add_0_r. reflexivity.
  - unfold agg_fold in *. cbn [fold_left]. rewrite agg_step_z, IH.
    cbn [flat_map item_bytes length agg_sum]. fold (zf i (pre ++ r ++ pk ++ m)).
    rewrite <- !app_assoc, <- !Z.add_assoc, Z.add_mod_idemp_l by lia. repeat f_equal; lia.
Qed.

Lemma prefix_bytes_app : forall k1 k2 agg,
  prefix_bytes agg (k1 ++ k2) = prefix_bytes agg k1 ++ prefix_bytes (skipn (32 * length k1) agg) k2.
Proof.
  induction k1 as [|[pk m] k1 IH]; intros k2 agg.
  - reflexivity.
  - cbn [app prefix_bytes length]. rewrite IH. rewrite skipn_skipn.
    replace (32 + 32 * length k1)%nat with (32 * S (length k1))%nat by lia.
    rewrite <- !app_assoc. reflexivity.
Qed.

Lemma prefix_bytes_ext : forall k a b, (32 * length k <= length a)%nat ->
  prefix_bytes (a ++ b) k = prefix_bytes a k.
Proof.
  induction k as [|[pk m] k IH]; intros a b H.
  - reflexivity.
  - cbn [prefix_bytes]. cbn [length] in H.
    rewrite firstn_app, skipn_app. replace (32 - length a)%nat with 0%nat by lia. rewrite firstn_O, skipn_O, app_nil_r.
    rewrite IH; [reflexivity|]. rewrite skipn_length. lia.
Qed.

Lemma prefix_bytes_firstn : forall k a, (32 * length k <= length a)%nat ->
  prefix_bytes (firstn (32 * length k) a) k = prefix_bytes a k.
Proof.
  intros k a H. rewrite <- (firstn_skipn (32 * length k) a) at 2. symmetry. apply prefix_bytes_ext.
  rewrite firstn_length. lia.
Qed.

Lemma prefix_bytes_items : forall l rest, Forall wf_item l ->
  prefix_bytes (flat_map item_r l ++ rest) (map item_km l) = flat_map item_bytes l.
Proof.
  induction l as [|it l IH]; intros rest H.
  - reflexivity.
  - inversion H as [|? ? H1 H2]; subst. destruct it as [[[r pk] m] sb]. unfold wf_item in H1. cbn in H1.
    cbn [flat_map map item_r item_km item_bytes prefix_bytes].
    rewrite <- app_assoc. rewrite (firstn_app_exact r _ 32 H1), (skipn_app_exact r _ 32 H1).
    rewrite IH by assumption. rewrite <- !app_assoc. reflexivity.
Qed.

Lemma flat_r_length : forall l, Forall wf_item l -> length (flat_map item_r l) = (32 * length l)%nat.
Proof.
  induction l as [|it l IH]; intros H; [reflexivity|].
  inversion H; subst. cbn [flat_map length]. rewrite app_length, IH by assumption.
  unfold wf_item in *. lia.
Qed.

Definition s_start (agg : bytes) (nb : nat) : Z :=
  if Nat.eqb nb 0 then 0 else fst (sc_of_b32 P (slice (32 * nb) 32 agg)).

Lemma s_start_range : forall agg nb, 0 <= s_start agg nb < cn P.
Proof. intros. unfold s_start. destruct (Nat.eqb nb 0); [lia | apply sc_of_b32_range, n_pos]. Qed.

(* inc_items without its loop: the head of the buffer, the new r_i, the old s plus the new terms, the tail *)
Lemma inc_items_closed : forall agg before new,
  inc_items P agg before new =
  firstn (32 * length before) agg ++ flat_map item_r new
    ++ sc_to_b32 ((s_start agg (length before) + agg_sum new (prefix_bytes agg before) (Z.of_nat (length before))) mod cn P)
    ++ skipn (32 * (length before + length new + 1)) agg.
Proof.
  intros. unfold inc_items. cbv zeta. fold (s_start agg (length before)).
  rewrite <- (Z.mod_small (s_start agg (length before)) (cn P)) at 1 by apply s_start_range.
  rewrite agg_fold_closed. reflexivity.
Qed.

Lemma inc_items_length : forall agg before new, Forall wf_item new ->
  (32 * (length before + length new + 1) <= length agg)%nat ->
  length (inc_items P agg before new) = length agg.
Proof.
  intros agg before new Hwf Hlen. unfold inc_items.
  rewrite !app_length, firstn_length, flat_r_length, sc_to_b32_length, skipn_length by assumption. lia.
Qed.

(* what a later call reads back from the buffer an earlier call left: the head with the new r_i, the new s,
   the hashed prefix extended by the new triples, and the untouched tail *)
Lemma inc_items_readback : forall agg b0 l1,
  Forall wf_item l1 -> (32 * (length b0 + length l1 + 1) <= length agg)%nat ->
  let out := inc_items P agg b0 l1 in
  let n1 := (length b0 + length l1)%nat in
  firstn (32 * n1) out = firstn (32 * length b0) agg ++ flat_map item_r l1 /\
  s_start out n1 = (s_start agg (length b0) + agg_sum l1 (prefix_bytes agg b0) (Z.of_nat (length b0))) mod cn P /\
  prefix_bytes out (b0 ++ map item_km l1) = prefix_bytes agg b0 ++ flat_map item_bytes l1 /\
  forall k, skipn (32 * (n1 + k + 1)) out = skipn (32 * (n1 + k + 1)) agg.
Proof.
  intros agg b0 l1 Hwf Hlen out n1. subst out n1. rewrite inc_items_closed, app_assoc.
  set (hd := firstn (32 * length b0) agg ++ flat_map item_r l1).
  set (s1 := (_ + _) mod cn P).
  assert (Hhd : length hd = (32 * (length b0 + length l1))%nat)
    by (unfold hd; rewrite app_length, firstn_length, flat_r_length by exact Hwf; lia).
  repeat split.
  - apply firstn_app_exact, Hhd.
  - unfold s_start at 1. destruct (Nat.eqb_spec (length b0 + length l1) 0) as [E|E].
    + destruct l1; [|cbn in E; lia]. cbn in E. unfold s1, s_start. replace (length b0) with 0%nat by lia.
      reflexivity.
    + rewrite (slice_app_mid hd _ _ _ 32 Hhd (sc_to_b32_length _)), sc_of_b32_to_b32
        by (try apply Z.mod_pos_bound; assumption). reflexivity.
  - rewrite prefix_bytes_ext by (rewrite app_length, map_length, Hhd; lia).
    unfold hd. rewrite prefix_bytes_app, prefix_bytes_ext by (rewrite firstn_length; lia).
    rewrite skipn_app_exact by (rewrite firstn_length; lia).
    rewrite prefix_bytes_firstn by lia.
    rewrite <- (app_nil_r (flat_map item_r l1)), prefix_bytes_items by exact Hwf. reflexivity.
  - intros k. rewrite app_assoc.
    replace (32 * (length b0 + length l1 + k + 1))%nat with (32 * (length b0 + length l1 + 1) + 32 * k)%nat by lia.
    rewrite <- !skipn_skipn, skipn_app_exact by (rewrite app_length, Hhd, sc_to_b32_length; lia). reflexivity.
Qed.

Theorem inc_items_assoc : forall agg b0 l1 l2,
  Forall wf_item l1 ->
  (32 * (length b0 + length l1 + 1) <= length agg)%nat ->
  inc_items P (inc_items P agg b0 l1) (b0 ++ map item_km l1) l2 = inc_items P agg b0 (l1 ++ l2).
Proof.
  intros agg b0 l1 l2 Hwf Hlen. destruct (inc_items_readback agg b0 l1 Hwf Hlen) as (F & S & Pf & K).
  rewrite (inc_items_closed (inc_items P agg b0 l1)), (inc_items_closed agg b0 (l1 ++ l2)).
  rewrite !app_length, map_length, F, S, Pf, K.
  rewrite flat_map_app, agg_sum_app, <- !app_assoc, Z.add_mod_idemp_l, Nat2Z.inj_add, Z.add_assoc, Nat.add_assoc by lia.
  reflexivity.
Qed.

(* any split: a chain of incremental calls, each one started on the buffer left by the previous one *)
Fixpoint inc_chain (agg : bytes) (done : list (bytes * bytes)) (parts : list (list item)) : bytes :=
  match parts with
  | [] => agg
  | l :: t => inc_chain (inc_items P agg done l) (done ++ map item_km l) t
  end.

Theorem inc_chain_eq_oneshot : forall parts agg b0 l0,
  Forall wf_item l0 -> Forall (Forall wf_item) parts ->
  (32 * (length b0 + length l0 + length (concat parts) + 1) <= length agg)%nat ->
  inc_chain (inc_items P agg b0 l0) (b0 ++ map item_km l0) parts = inc_items P agg b0 (l0 ++ concat parts).
Proof.
  induction parts as [|l t IH]; intros agg b0 l0 H0 Hp Hlen.
  - simpl. rewrite app_nil_r. reflexivity.
  - inversion Hp; subst. cbn [inc_chain concat] in *. rewrite app_length in Hlen.
    rewrite inc_items_assoc by (try assumption; lia).
    rewrite <- app_assoc, <- map_app.
    rewrite IH; try assumption.
    + rewrite <- app_assoc. reflexivity.
    + apply Forall_app. split; assumption.
    + rewrite app_length. lia.
Qed.

Theorem aggregate_bytes_spec : forall agg new,
  inc_items P agg [] new =
  flat_map item_r new ++ sc_to_b32 (agg_sum new [] 0 mod cn P) ++ skipn (32 * (length new + 1)) agg.
Proof. intros. apply inc_items_closed. Qed.

Definition trip := (bytes * bytes * bytes)%type.      (* key object, message, signature *)
Definition t_pk (t : trip) : bytes := fst (fst t).
Definition t_msg (t : trip) : bytes := snd (fst t).
Definition t_sig (t : trip) : bytes := snd t.
Definition ser_of (o : bytes) : bytes := match xonly_ser o with Some k => k | None => [] end.
Definition t_km (t : trip) : bytes * bytes := (ser_of (t_pk t), t_msg t).
Definition t_item (t : trip) : item := mk_item (t_km t, t_sig t).
(* the key object loads (x <> 0) and the signature has its 32 bytes of r *)
Definition wf_trip (t : trip) : Prop := xonly_ser (t_pk t) <> None /\ (32 <= length (t_sig t))%nat.

Lemma Forall_wf_items : forall l, Forall wf_trip l -> Forall wf_item (map t_item l).
Proof.
  intros l H. apply Forall_map. eapply Forall_impl; [|exact H]. intros t [_ Ht].
  unfold wf_item. change (item_r (t_item t)) with (firstn 32 (t_sig t)). rewrite firstn_length. lia.
Qed.

Lemma all_some_ser : forall l, Forall wf_trip l ->
  all_some (map xonly_ser (map t_pk l)) = Some (map (fun t => ser_of (t_pk t)) l).
Proof.
  induction l as [|t l IH]; intros H; [reflexivity|].
  inversion H as [|? ? [H1 _] H2]; subst. cbn [map all_some].
  unfold ser_of at 1. destruct (xonly_ser (t_pk t)) eqn:E; [|congruence].
  rewrite IH by assumption. reflexivity.
Qed.

Lemma firstn_len_app : forall {A} (a b : list A), firstn (length a) (a ++ b) = a.
Proof. intros. apply firstn_app_exact. reflexivity. Qed.
Lemma skipn_len_app : forall {A} (a b : list A), skipn (length a) (a ++ b) = b.
Proof. intros. apply skipn_app_exact. reflexivity. Qed.

Lemma halfagg_inc_ok : forall agg len (d w : list trip),
  Forall wf_trip d -> Forall wf_trip w ->
  Z.of_nat (length d + length w) < size_max ->
  32 * (Z.of_nat (length d + length w) + 1) <= len ->
  halfagg_inc P (Some agg) (Some len) (Some (map t_pk (d ++ w))) (Some (map t_msg (d ++ w))) (Some (map t_sig w))
              (Z.of_nat (length d)) (Z.of_nat (length w))
  = [AInt 1; AInt (32 * (Z.of_nat (length d + length w) + 1));
     ABytes (inc_items P agg (map t_km d) (map t_item w))].
Proof.
  intros agg len d w Hd Hw Hsz Hlen. unfold halfagg_inc.
  rewrite <- Nat2Z.inj_add, Z.mod_small by lia. cbv zeta.
  rewrite (proj2 (Z.ltb_ge _ (Z.of_nat (length d)))) by lia.
  rewrite (proj2 (agg_len_ok_iff len _)) by lia.
  rewrite !Nat2Z.id, <- app_length, !firstn_map_all.
  rewrite all_some_ser by (apply Forall_app; split; assumption).
  rewrite combine_map2. change (fun x : trip => (ser_of (t_pk x), t_msg x)) with t_km.
  rewrite map_app, <- (map_length t_km d), skipn_len_app, firstn_len_app.
  rewrite combine_map2, map_map. reflexivity.
Qed.

Lemma halfagg_aggregate_ok : forall agg len (w : list trip),
  Forall wf_trip w -> Z.of_nat (length w) < size_max -> 32 * (Z.of_nat (length w) + 1) <= len ->
  halfagg_aggregate P (Some agg) (Some len) (Some (map t_pk w)) (Some (map t_msg w)) (Some (map t_sig w)) (Z.of_nat (length w))
  = [AInt 1; AInt (32 * (Z.of_nat (length w) + 1)); ABytes (inc_items P agg [] (map t_item w))].
Proof. intros agg len w. exact (halfagg_inc_ok agg len [] w (Forall_nil _)). Qed.

Definition ret_of (l : list arg) : Z := get_int (hd ANone l).

(* exact length: on success the new *aggsig_len is 32*(n+1) and nothing else; on failure length and
   buffer are untouched *)
Theorem aggregate_length : forall aggsig alen pks msgs sigs nb nn,
  let r := halfagg_inc P aggsig alen pks msgs sigs nb nn in
  let n := (nb + nn) mod size_max in
  (ret_of r = 1 /\ exists agg len out, aggsig = Some agg /\ alen = Some len /\ 32 * (n + 1) <= len /\
                     r = [AInt 1; AInt (32 * (n + 1)); ABytes out])
  \/ (ret_of r = 0 /\ exists tl, r = AInt 0 :: match alen with Some l => AInt l | None => ANone end
                                        :: match aggsig with Some a => ABytes a | None => ANone end :: tl).
Proof.
  intros. subst r n. unfold halfagg_inc.
  destruct aggsig as [agg|]; [destruct alen as [len|]|]; try (right; split; [reflexivity | eexists; reflexivity]).
  cbv zeta. destruct (all_some (A:=bytes) _); destruct (_ || _) eqn:EL;
    repeat match goal with |- context [if ?c then _ else _] => destruct c end;
    try (right; split; [reflexivity | eexists; reflexivity]).
  left. split; [reflexivity|]. do 3 eexists. repeat split; try reflexivity. apply agg_len_ok_iff, EL.
Qed.

(* any split: every call is given the whole capacity [cap] of the buffer as *aggsig_len *)
Fixpoint api_chain (cap : Z) (buf : bytes) (done : list trip) (parts : list (list trip)) : option bytes :=
  match parts with
  | [] => Some buf
  | w :: t =>
    match halfagg_inc P (Some buf) (Some cap) (Some (map t_pk (done ++ w))) (Some (map t_msg (done ++ w))) (Some (map t_sig w))
                      (Z.of_nat (length done)) (Z.of_nat (length w)) with
    | [AInt 1; AInt _; ABytes buf'] => api_chain cap buf' (done ++ w) t
    | _ => None
    end
  end.

Lemma api_chain_core : forall parts cap buf done,
  Forall wf_trip done -> Forall (Forall wf_trip) parts ->
  Z.of_nat (length done + length (concat parts)) < size_max ->
  32 * (Z.of_nat (length done + length (concat parts)) + 1) <= cap ->
  api_chain cap buf done parts = Some (inc_chain buf (map t_km done) (map (map t_item) parts)).
Proof.
  induction parts as [|w t IH]; intros cap buf done Hd Hp Hsz Hcap.
  - reflexivity.
  - inversion Hp; subst. cbn [api_chain concat map inc_chain] in *. rewrite app_length in *.
    rewrite halfagg_inc_ok by (try assumption; lia).
    rewrite IH by first [assumption | apply Forall_app; split; assumption | rewrite app_length; lia].
    rewrite map_app, map_map. reflexivity.
Qed.

(* the chain of API calls over any split leaves the buffer of the one-shot data path *)
Theorem api_chain_oneshot : forall parts (w0 : list trip) agg cap,
  Forall wf_trip w0 -> Forall (Forall wf_trip) parts ->
  Z.of_nat (length (w0 ++ concat parts)) < size_max ->
  32 * (Z.of_nat (length (w0 ++ concat parts)) + 1) <= cap -> cap <= Z.of_nat (length agg) ->
  api_chain cap agg [] (w0 :: parts) = Some (inc_items P agg [] (map t_item (w0 ++ concat parts))).
Proof.
  intros parts w0 agg cap H0 Hp Hsz Hcap Hbuf.
  rewrite api_chain_core; [| constructor | constructor; assumption | exact Hsz | exact Hcap].
  cbn [map inc_chain app]. rewrite app_length in *. change (map item_km (map t_item w0)) with ([] ++ map item_km (map t_item w0)).
  rewrite inc_chain_eq_oneshot, map_app, concat_map.
  - reflexivity.
  - apply Forall_wf_items, H0.
  - apply Forall_map. eapply Forall_impl; [|exact Hp]. apply Forall_wf_items.
  - cbn [length]. rewrite map_length, <- concat_map, map_length. lia.
Qed.

Theorem inc_aggregate_assoc : forall parts (w0 : list trip) agg cap,
  let all := w0 ++ concat parts in
  Forall wf_trip w0 -> Forall (Forall wf_trip) parts ->
  Z.of_nat (length all) < size_max ->
  32 * (Z.of_nat (length all) + 1) <= cap -> cap <= Z.of_nat (length agg) ->
  exists out,
    api_chain cap agg [] (w0 :: parts) = Some out /\
    halfagg_aggregate P (Some agg) (Some cap) (Some (map t_pk all)) (Some (map t_msg all)) (Some (map t_sig all))
                      (Z.of_nat (length all))
      = [AInt 1; AInt (32 * (Z.of_nat (length all) + 1)); ABytes out] /\
    length out = length agg.
Proof.
  intros parts w0 agg cap all H0 Hp Hsz Hcap Hbuf. subst all.
  assert (Hall : Forall wf_trip (w0 ++ concat parts))
    by (apply Forall_app; split; [assumption | apply Forall_concat; assumption]).
  exists (inc_items P agg [] (map t_item (w0 ++ concat parts))). repeat split.
  - apply api_chain_oneshot; assumption.
  - apply halfagg_aggregate_ok; assumption.
  - apply inc_items_length; [apply Forall_wf_items, Hall | cbn [length]; rewrite map_length; lia].
Qed.

Definition r_ok (r : bytes) : bool :=
  match fe_of_b32 P r with
  | Some rx => match ge_set_xo P rx false with None => false | _ => true end
  | None => false
  end.

(* r_i passes iff it lifts to a curve point (lift_x itself refuses values >= p) *)
Lemma r_ok_lift : forall r, r_ok r = match lift_x P (be_val r) false with None => false | _ => true end.
Proof.
  intros. unfold r_ok, fe_of_b32, ge_set_xo, lift_x. cbv zeta.
  destruct (Z.ltb_spec (be_val r) (cp P)); [reflexivity|].
  replace (cp P <=? be_val r) with true by lia. rewrite orb_true_r. reflexivity.
Qed.

(* T_i' = z_i * (e_i*P_i + lift_x(r_i)), computed without any check (defaults where a check would fail) *)
Definition spec_term (pre' : bytes) (i : Z) (pko m r : bytes) : point :=
  let Q := match pk_load pko with Some Q => Q | None => None end in
  let R := ge_set_xo P (match fe_of_b32 P r with Some rx => rx | None => 0 end) false in
  let T := padd P (pmul P (challenge P r m (fe_to_b32 (px Q))) Q) R in
  if i =? 0 then T else pmul P (hz P pre') T.
Fixpoint spec_rhs (its : list (bytes * bytes * bytes)) (pre : bytes) (i : Z) (rhs : point) : point :=
  match its with
  | [] => rhs
  | (pko, m, r) :: t =>
    let pk32 := fe_to_b32 (px (match pk_load pko with Some Q => Q | None => None end)) in
    let pre' := pre ++ r ++ pk32 ++ m in
    spec_rhs t pre' (i + 1) (padd P rhs (spec_term pre' i pko m r))
  end.
Definition item_ok (it : bytes * bytes * bytes) : Prop :=
  pk_load (fst (fst it)) <> None /\ r_ok (snd it) = true.

Lemma item_ok_cons : forall pko m r t, Forall item_ok ((pko, m, r) :: t) <->
  (pk_load pko <> None /\ r_ok r = true) /\ Forall item_ok t.
Proof. split; [intros F; inversion F; auto | intros [? ?]; constructor; auto]. Qed.

(* the loop either returns early with 0 because some item fails its checks, or runs through and has
   computed the sum of the specification *)
Lemma aggv_loop_cases : forall its pre i rhs,
  (exists res, aggv_loop P its pre i rhs = inl res /\ ret_of res = 0 /\ ~ Forall item_ok its) \/
  (aggv_loop P its pre i rhs = inr (spec_rhs its pre i rhs) /\ Forall item_ok its).
Proof.
  induction its as [|[[pko m] r] t IH]; intros pre i rhs; [right; split; [reflexivity | constructor]|].
  cbn [aggv_loop spec_rhs]. unfold spec_term. setoid_rewrite item_ok_cons. unfold r_ok.
  destruct (pk_load pko) as [Q|]; [|left; eexists; repeat split; intros [[? ?] _]; congruence].
  destruct (fe_of_b32 P r) as [rx|]; [|left; eexists; repeat split; intros [[? ?] _]; congruence].
  destruct (ge_set_xo P rx false) as [R|]; [|left; eexists; repeat split; intros [[? ?] _]; congruence].
  match goal with |- context [aggv_loop P t ?a ?b ?c] => destruct (IH a b c) as [(res & E & H0 & HF)|[E HF]] end.
  - left. exists res. repeat split; [exact E|exact H0|tauto].
  - right. repeat split; [exact E|discriminate|exact HF].
Qed.

Lemma chunks32_length : forall k b, length (chunks32 k b) = k.
Proof. induction k; intros; simpl; [reflexivity | rewrite IHk; reflexivity]. Qed.

Lemma nth_chunks32 : forall k i b, (i < k)%nat -> nth i (chunks32 k b) [] = slice (32 * i) 32 b.
Proof.
  induction k; intros i b H; [lia|]. destruct i.
  - reflexivity.
  - cbn [chunks32 nth]. rewrite IHk by lia. unfold slice. rewrite skipn_skipn. do 2 f_equal. lia.
Qed.

Lemma r_ok_chunk : forall pks msgs nn agg i,
  (i < nn)%nat -> (nn <= length pks)%nat -> (nn <= length msgs)%nat ->
  Forall item_ok (combine (combine (firstn nn pks) (firstn nn msgs)) (chunks32 nn agg)) ->
  r_ok (slice (32 * i) 32 agg) = true.
Proof.
  intros pks msgs nn agg i Hi Hp Hm F. rewrite <- (nth_chunks32 nn) by exact Hi.
  assert (L : length (combine (firstn nn pks) (firstn nn msgs)) = length (chunks32 nn agg))
    by (rewrite chunks32_length, combine_length, !firstn_length; lia).
  rewrite Forall_nth in F. specialize (F i (([], []), []) ltac:(rewrite combine_length, L, chunks32_length; lia)).
  rewrite combine_nth in F by exact L. exact (proj2 F).
Qed.

Definition lst (o : option (list bytes)) : list bytes := match o with Some l => l | None => [] end.

(* a NULL array is either rejected or stands for the empty list *)
Lemma aggverify_opt : forall pks msgs n aggsig len,
  ret_of (halfagg_aggverify P pks msgs n aggsig len) = 0 \/
  exists agg, aggsig = Some agg /\
    halfagg_aggverify P pks msgs n aggsig len = halfagg_aggverify P (Some (lst pks)) (Some (lst msgs)) n (Some agg) len.
Proof.
  intros. unfold halfagg_aggverify. destruct aggsig as [agg|].
  2:{ left. destruct pks, msgs; cbn; destruct (n =? 0); reflexivity. }
  destruct pks, msgs; cbn [negb lst]; try (destruct (n =? 0); cbn [negb]; [|left; reflexivity]);
    right; exists agg; split; reflexivity.
Qed.

Theorem aggverify_eq_spec : forall pks msgs n agg len,
  let nn := Z.to_nat n in
  let its := combine (combine (firstn nn pks) (firstn nn msgs)) (chunks32 nn agg) in
  let sv := be_val (slice (32 * nn) 32 agg) in
  ret_of (halfagg_aggverify P (Some pks) (Some msgs) n (Some agg) len) = 1 <->
  (len = 32 * (n + 1) /\ 0 <= n /\ Forall item_ok its /\ sv < cn P /\
   padd P (pneg P (pmul P (sv mod cn P) (G P))) (spec_rhs its [] 0 None) = None).
Proof.
  intros pks msgs n agg len nn its sv. unfold halfagg_aggverify. rewrite <- and_assoc, <- aggv_len_ok_iff.
  destruct (_ || _ || _); [split; [discriminate | intros [? _]; discriminate]|].
  cbv zeta. fold nn its. destruct (aggv_loop_cases its [] 0 None) as [(res & -> & H0 & HF)|[-> HF]].
  - rewrite H0. split; [discriminate | tauto].
  - unfold sc_of_b32. cbv zeta. fold sv. destruct (Z.leb_spec (cn P) sv); [split; [discriminate | lia]|].
    destruct (padd _ _ _); cbn; split; try discriminate;
      [intros (_ & _ & _ & ?); discriminate | intros _; repeat split; auto | reflexivity].
Qed.

Theorem aggverify_ret_bool : forall pks msgs n aggsig len,
  let r := ret_of (halfagg_aggverify P pks msgs n aggsig len) in r = 0 \/ r = 1.
Proof.
  intros. subst r. destruct (aggverify_opt pks msgs n aggsig len) as [E|(agg & -> & ->)]; [auto|].
  unfold halfagg_aggverify. destruct (_ || _ || _); [auto|]. cbv zeta.
  match goal with |- context [aggv_loop P ?its ?a ?b ?c] =>
    destruct (aggv_loop_cases its a b c) as [(res & -> & H0 & _)|[-> _]]; [auto|] end.
  destruct (sc_of_b32 _ _) as [s []]; [auto|]. destruct (is_inf _); auto.
Qed.

(* for any arguments: the call is rejected unless every clause of the specification holds *)
Theorem aggverify_accepts : forall pks msgs n aggsig len,
  ret_of (halfagg_aggverify P pks msgs n aggsig len) = 0 \/
  exists agg, aggsig = Some agg /\
    let nn := Z.to_nat n in
    let its := combine (combine (firstn nn (lst pks)) (firstn nn (lst msgs))) (chunks32 nn agg) in
    let sv := be_val (slice (32 * nn) 32 agg) in
    len = 32 * (n + 1) /\ 0 <= n /\ Forall item_ok its /\ sv < cn P /\
    padd P (pneg P (pmul P (sv mod cn P) (G P))) (spec_rhs its [] 0 None) = None.
Proof.
  intros. destruct (aggverify_opt pks msgs n aggsig len) as [E|(agg & -> & E)]; [auto|]. rewrite E.
  destruct (aggverify_ret_bool (Some (lst pks)) (Some (lst msgs)) n (Some agg) len) as [R|R]; [auto|].
  right. exists agg. split; [reflexivity | apply aggverify_eq_spec, R].
Qed.

Lemma aggverify_bad_chunk : forall pks msgs n agg len i,
  (i < Z.to_nat n)%nat -> (Z.to_nat n <= length pks)%nat -> (Z.to_nat n <= length msgs)%nat ->
  r_ok (slice (32 * i) 32 agg) = false ->
  ret_of (halfagg_aggverify P (Some pks) (Some msgs) n (Some agg) len) = 0.
Proof.
  intros pks msgs n agg len i Hi Hp Hm Hbad.
  destruct (aggverify_accepts (Some pks) (Some msgs) n (Some agg) len) as [E|(a & [= <-] & _ & _ & F & _)]; [exact E|].
  apply (r_ok_chunk _ _ _ _ i) in F; try assumption. congruence.
Qed.
End HalfaggProofs.

(* the premises are satisfiable: secp256k1 and the order-13 group of the repository *)
Example premises_secp256k1 : 0 < cn secp256k1 /\ cn secp256k1 <= 2 ^ 256.
Proof. split; vm_compute; [reflexivity | discriminate]. Qed.
Example premises_order13 : 0 < 13 /\ 13 <= 2 ^ 256.
Proof. split; vm_compute; [reflexivity | discriminate]. Qed.
(* a well-formed triple exists: any key object with x <> 0, any 64-byte signature *)
Example wf_trip_inhabited : wf_trip (be_enc 32 1 ++ be_enc 32 2, zeros 32, zeros 64).
Proof. split; [vm_compute; discriminate | vm_compute; lia]. Qed.
