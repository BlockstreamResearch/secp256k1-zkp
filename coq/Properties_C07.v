(* C07 - Untrusted bytes never cause undefined behaviour or callback aborts (PARTIAL: logic proved on the
   model, memory safety of the compiled code observed under ASan/UBSan).
   Proved here, for ALL byte strings: the parser/verifier models return only 0 or 1 and raise no callback on
   loadable objects; the DER parser's result cannot depend on any byte outside its input (default-irrelevance);
   parsed public keys are always finite on-curve points (so no consumer can abort on them).
   The other modules' acceptance-set and no-leak theorems are in Properties_C08/C10/C11/C12/C14/C16/C17/C19.
   Observed by ./check C07 on the implementation built with -fsanitize=address,undefined: every entry point on
   the corpus of all API families, on content/length mutations of every serialized input, and on random
   strings of every length; allocation deltas; illegal/error callback counts. *)
From Coq Require Import ZArith List Bool.
Require Import Spec.Params Spec.Field Spec.Curve Spec.Bytes.
Require Import Model.Base Model.Keys Model.Der Model.Ecdsa Model.Schnorr.
Require Import Proofs.BytesLemmas Proofs.EcdsaProofs Proofs.DerProofs Proofs.DerSafe Proofs.PubkeyProofs Proofs.SchnorrProofs Proofs.SecpConsts.
Import ListNotations.
Local Open Scope Z_scope.
Notation S := secp256k1.

Theorem der_parse_returns_0_or_1 : forall input,
  ecdsa_signature_parse_der S input = [AInt 0; ABytes (zeros 64)] \/
  exists r s, ecdsa_signature_parse_der S input = [AInt 1; ABytes (sig_obj r s)] /\ 0 <= r < cn S /\ 0 <= s < cn S.
Proof. exact (Proofs.DerProofs.der_parse_outcomes S secp_n_pos). Qed.
Print Assumptions der_parse_returns_0_or_1.

Theorem der_integer_result_independent_of_bytes_outside_input : forall d inp,
  bytes_okP inp -> der_parse_integer_d S d inp = der_parse_integer S inp.
Proof. exact (der_parse_integer_default_irrelevant S). Qed.
Print Assumptions der_integer_result_independent_of_bytes_outside_input.

Theorem parsed_pubkey_is_finite_on_curve : forall b Q, eckey_pubkey_parse S b = Some Q ->
  Q <> None /\ on_curve S Q = true /\
  ((length b = 33%nat /\ (nth 0 b 0 = 2 \/ nth 0 b 0 = 3)) \/ (length b = 65%nat /\ (nth 0 b 0 = 4 \/ nth 0 b 0 = 6 \/ nth 0 b 0 = 7))).
Proof. exact (Proofs.PubkeyProofs.pubkey_parse_sound S secp_p_pos). Qed.
Print Assumptions parsed_pubkey_is_finite_on_curve.

Theorem schnorr_verify_returns_0_or_1_without_callback : forall sig64 msg xobj Q, pk_load xobj = Some Q ->
  schnorrsig_verify S sig64 msg xobj = [AInt 0] \/ schnorrsig_verify S sig64 msg xobj = [AInt 1].
Proof. exact (Proofs.SchnorrProofs.verify_outcomes S). Qed.
Print Assumptions schnorr_verify_returns_0_or_1_without_callback.

Theorem ecdsa_verify_returns_0_or_1_without_callback : forall sigobj msg32 pkobj Q,
  pk_load pkobj = Some Q -> inr S Q -> 0 <= sig_obj_r sigobj < cn S ->
  ecdsa_verify S sigobj msg32 pkobj = [AInt 1] \/ ecdsa_verify S sigobj msg32 pkobj = [AInt 0].
Proof. intros sigobj msg32 pkobj Q HL _ _. exact (ecdsa_verify_ret01 S sigobj msg32 pkobj Q HL). Qed.
Print Assumptions ecdsa_verify_returns_0_or_1_without_callback.
