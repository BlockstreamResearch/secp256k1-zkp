(* C18 - ECDH and ElligatorSwift.  The lemmas used are in Proofs/EllswiftProofs.v.
   Models: Model/Ecdh.v, Model/Ellswift.v.
   Proved without any fact about the field or the group: the exact failure set and failure masking of
   secp256k1_ecdh and secp256k1_ellswift_xdh for EVERY hash function; a decoded point is on the curve; an
   encoding that the model outputs decodes back to the key; create fails exactly for an invalid secret;
   structure of the inverse map and of the encoding search.
   Theorems named _partial lack one ingredient that needs p prime + field reasoning: that the model's
   run-time checks (#-96) never fire, i.e. one of x1,x2,x3 is always on the curve and every t returned by
   the inverse map decodes back to x.  Those two facts are covered by the correspondence only. *)
From Coq Require Import ZArith List Bool Lia.
Require Import Spec.Params Spec.Field Spec.Curve Spec.Bytes Spec.Sha256 Model.Base Model.Ecdh Model.Ellswift Proofs.EllswiftProofs.
Require Import Proofs.MathFacts Proofs.ModLemmas Proofs.BaseLemmas Proofs.EcdhComplete.
Import ListNotations.
Local Open Scope Z_scope.

(* secp256k1_ecdh, any hash function h (h returns (return value, bytes written)):
   1 <= secret < n: output = h(x, y of secret*Q), return value = (h returned non-zero);
   secret = 0 or >= n: return 0, and what is left in output is h applied to 1*Q (scalar replaced by one) *)
Theorem ecdh_exact : forall P, 0 < cn P -> forall (h : ecdh_hashfn) obj seckey Q,
  pk_load obj = Some Q ->
  let v := be_val seckey in
  (1 <= v < cn P ->
     let R := pmul P v Q in
     let hr := h (fe_to_b32 (px R)) (fe_to_b32 (py R)) in
     ecdh P h obj seckey = [AInt (b2z (negb (fst hr =? 0))); ABytes (snd hr)])
  /\ (v = 0 \/ cn P <= v ->
     ecdh P h obj seckey = [AInt 0; ABytes (snd (h (fe_to_b32 (px Q)) (fe_to_b32 (py Q))))]).
Proof. exact ecdh_exact. Qed.
Print Assumptions ecdh_exact.

Theorem ecdh_default_exact : forall P, 0 < cn P -> forall obj seckey Q,
  pk_load obj = Some Q ->
  let v := be_val seckey in 0 <= v ->
  exists out, ecdh P ecdh_hash_sha256 obj seckey = [AInt (b2z ((1 <=? v) && (v <? cn P))); ABytes out] /\
    (1 <= v < cn P -> let R := pmul P v Q in
       out = sha256 (Z.lor (Z.land (last (fe_to_b32 (py R)) 0) 1) 2 :: fe_to_b32 (px R))).
Proof.
  intros P Hn obj k Q HQ v Hv. unfold ecdh. rewrite HQ, (ecdh_pt_spec P Hn) by exact Hv.
  eexists. split; [reflexivity|]. intros H. rewrite (proj2 (sk_ok_iff P k) H). reflexivity.
Qed.
Print Assumptions ecdh_default_exact.

(* secp256k1_ellswift_xdh: the remote string is ell_a for party <> 0 and ell_b for party = 0; same masking *)
Theorem xdh_exact : forall P, 0 < cn P -> forall (h : xdh_hashfn) ell_a ell_b seckey party x y,
  lift_x P (xdh_remote_x P ell_a ell_b party) false = Some (x, y) ->
  let v := be_val seckey in
  let Q := Some (x, y) in
  (1 <= v < cn P ->
     let hr := h (fe_to_b32 (px (pmul P v Q))) ell_a ell_b in
     ellswift_xdh P h ell_a ell_b seckey party = [AInt (b2z (negb (fst hr =? 0))); ABytes (snd hr)])
  /\ (v = 0 \/ cn P <= v ->
     ellswift_xdh P h ell_a ell_b seckey party = [AInt 0; ABytes (snd (h (fe_to_b32 x) ell_a ell_b))]).
Proof. exact xdh_exact. Qed.
Print Assumptions xdh_exact.

Theorem xdh_ret_bip324 : forall P, 0 < cn P -> forall ell_a ell_b seckey party x y,
  lift_x P (xdh_remote_x P ell_a ell_b party) false = Some (x, y) ->
  let v := be_val seckey in 0 <= v ->
  exists out, ellswift_xdh P xdh_hash_bip324 ell_a ell_b seckey party = [AInt (b2z ((1 <=? v) && (v <? cn P))); ABytes out].
Proof.
  intros P Hn a b k party x y HL v Hv. rewrite (xdh_spec P Hn _ a b k party _ HL Hv). eexists. reflexivity.
Qed.
Print Assumptions xdh_ret_bip324.

(* decode never returns 0; the point it returns is on the curve.  Missing for the full statement: the
   first alternative (final check of the model fails) never happens. *)
Theorem decode_total_on_curve_partial : forall P, 0 < cp P -> forall ell64,
  ellswift_decode P ell64 = model_check_failed \/
  exists x y, decode_pt P ell64 = Some (x, y) /\
              ellswift_decode P ell64 = [AInt 1; ABytes (pk_obj (Some (x, y)))] /\
              on_curve P (Some (x, y)) = true.
Proof.
  intros P Hp ell. unfold ellswift_decode. destruct (decode_pt P ell) as [[x y]|] eqn:E; [right | left; reflexivity].
  exists x, y. repeat split. exact (decode_pt_on_curve P Hp ell _ E).
Qed.
Print Assumptions decode_total_on_curve_partial.

(* an encoding output by the model decodes to the key it was made for (by the model's round-trip check;
   missing: the check never fails) *)
Theorem encode_decode_partial : forall P obj rnd32 ell,
  ellswift_encode P obj rnd32 = [AInt 1; ABytes ell] ->
  exists x y, pk_load obj = Some (Some (x, y)) /\ ellswift_decode P ell = [AInt 1; ABytes (pk_obj (Some (x, y)))].
Proof.
  intros P obj rnd ell H. unfold ellswift_encode in H. destruct (pk_load obj) as [Q|] eqn:EL; [|discriminate].
  destruct (pk_load_finite _ _ EL) as (x & y & ->). exists x, y. split; [reflexivity|].
  pose proof (ell_finish_cases P (Some (x, y)) tag_ell_encode ((ser33 (Some (x, y)) ++ zeros 31) ++ rnd)) as C.
  rewrite H in C. destruct C as [C|[C|(e & C & D)]]; try discriminate C.
  injection C as <-. unfold ellswift_decode. rewrite D. reflexivity.
Qed.
Print Assumptions encode_decode_partial.

Theorem create_exact_partial : forall P seckey32 aux,
  (seckey_of_b32 P seckey32 = None -> ellswift_create P seckey32 aux = [AInt 0; ABytes (zeros 64)]) /\
  (forall d, seckey_of_b32 P seckey32 = Some d ->
     ellswift_create P seckey32 aux = abstain \/ ellswift_create P seckey32 aux = model_check_failed \/
     exists ell, ellswift_create P seckey32 aux = [AInt 1; ABytes ell] /\ decode_pt P ell = pmul P d (G P)).
Proof.
  intros P sk aux. unfold ellswift_create. split; [intros -> | intros d ->]; [reflexivity | apply ell_finish_cases].
Qed.
Print Assumptions create_exact_partial.

(* the search returns only what the inverse map returned for some PRNG output u and a 3-bit branch value *)
Theorem search_uses_inverse : forall P fuel x tag pre cnt nleft pool u32 t,
  xelligatorswift P fuel x tag pre cnt nleft pool = Some (u32, t) ->
  exists c k, 0 <= c < 8 /\ u32 = ell_prng tag pre k /\ xswiftec_inv P x (be_val u32 mod cp P) c = Some t.
Proof.
  intros P. induction fuel as [|f IH]; intros x tag pre cnt nleft pool u32 t H; [discriminate|].
  cbn [xelligatorswift] in H.
  destruct (if nleft =? 0 then (cnt + 1, 64, ell_prng tag pre cnt) else (cnt, nleft, pool)) as [[cnt' left'] pool'].
  cbv zeta in H.
  set (c := Z.land (Z.shiftr (nth (Z.to_nat ((left' - 1) / 2)) pool' 0) (4 * ((left' - 1) mod 2))) 7) in *.
  destruct (xswiftec_inv P x (be_val (ell_prng tag pre cnt') mod cp P) c) as [t0|] eqn:E; [|eapply IH; exact H].
  inversion H; subst. exists c, cnt'. repeat split; try assumption.
  - apply Z.land_nonneg. right. lia.
  - unfold c. change 7 with (Z.ones 3). rewrite Z.land_ones by lia. apply Z.mod_pos_bound. lia.
Qed.
Print Assumptions search_uses_inverse.

(* what a successful inverse branch has checked (c & 2 selects the x1/x2 or the x3 formula) *)
Theorem inverse_branch_conditions : forall P x u c t,
  xswiftec_inv P x u c = Some t ->
  (Z.land c 2 = 0 ->
     x_on_curve P ((- (u + x)) mod cp P) = false /\
     fis_square P (fmul P ((- (((- (u + x)) mod cp P) * ((- (u + x)) mod cp P)) + u * x) mod cp P) ((u * u * u + cb P) mod cp P)) = true)
  /\ (Z.land c 2 <> 0 ->
     fis_square P ((x - u) mod cp P) = true /\ (x - u) mod cp P <> 0 /\
     fis_square P ((- (((x - u) mod cp P) * (4 * (u * u * u + cb P) + 3 * ((x - u) mod cp P) * u * u))) mod cp P) = true).
Proof.
  intros P x u c t H. unfold xswiftec_inv in H. cbv zeta in H. split; intros Hc.
  - rewrite Hc in H. cbn [Z.eqb] in H.
    destruct (x_on_curve P _) eqn:E1; [discriminate|].
    destruct (fis_square P _) eqn:E2; [|discriminate]. split; reflexivity.
  - replace (Z.land c 2 =? 0) with false in H by lia.
    destruct (fis_square P ((x - u) mod cp P)) eqn:E1; [|discriminate]. cbn [negb] in H.
    destruct (fis_square P ((- _) mod cp P)) eqn:E2; [|discriminate]. cbn [negb] in H.
    destruct (_ && _); [discriminate|].
    destruct ((x - u) mod cp P =? 0) eqn:E3; [discriminate|]. apply Z.eqb_neq in E3.
    repeat split; try assumption; reflexivity.
Qed.
Print Assumptions inverse_branch_conditions.

(* sign fix-up: t gets the parity of y *)
Theorem sign_fix_parity : forall P t (yodd : bool), Z.odd (cp P) = true -> 0 < t < cp P ->
  Z.odd (if Bool.eqb (Z.odd t) yodd then t else fneg P t) = yodd.
Proof.
  intros P t yodd Hp Ht. destruct (Bool.eqb (Z.odd t) yodd) eqn:E; [apply eqb_prop, E|].
  unfold fneg. rewrite mneg_odd by (assumption || lia). apply eqb_false_iff in E. destruct (Z.odd t), yodd; try reflexivity; congruence.
Qed.
Print Assumptions sign_fix_parity.

(* SYMMETRY [MF]: under the group premises both parties of an ECDH exchange on multiples of G obtain the same
   result (return value and output bytes), for every hash function.  (Example ecdh_symmetric_toy.)
   The x-only variant (xdh on ElligatorSwift strings) additionally needs square-root uniqueness in the field
   and the round trip of the map: not proved, checked on every generated pair. *)
Theorem ecdh_symmetric : forall P, MathFacts P -> forall (h : ecdh_hashfn) ka kb,
  1 <= be_val ka < cn P -> 1 <= be_val kb < cn P ->
  ecdh_pt P h (pmul P (be_val kb) (G P)) ka = ecdh_pt P h (pmul P (be_val ka) (G P)) kb.
Proof. exact ecdh_symmetric. Qed.
Print Assumptions ecdh_symmetric.
