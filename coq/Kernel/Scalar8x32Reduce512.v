(* Proof ABOUT the generated 32-bit-limb 512 -> 256 bit scalar reduction (Gen/scalar8x32_reduce_512.v:
   secp256k1_scalar_reduce_512 of src/scalar_8x32_impl.h with the final secp256k1_scalar_reduce translated in place):
   for ALL sixteen 32-bit limbs the result is the canonical residue modulo the group order. *)
From Coq Require Import ZArith Lia List Bool.
Require Import Kernel.CSem Kernel.Bind Kernel.Carry32 Kernel.Scalar4x64 Kernel.Scalar8x32Check Gen.scalar8x32_check_overflow Gen.scalar8x32_reduce_512.
Import ListNotations.
Local Open Scope Z_scope.
Local Opaque bind.

Lemma NC32_ok : (801750719 + 1076732275 * 2^32 + 1354194884 * 2^64 + 1162945305 * 2^96 + 2^128) = 2^256 - N256.
Proof. reflexivity. Qed.

(* the constants N_C_i appear as C expressions (~N_i + 1, ~N_i); they are evaluated in small goals only, never in the chain *)
Ltac norm :=
  try change (u32 (4294967295 - u32 3493216577 + 1)) with 801750719;
  try change (4294967295 - u32 3218235020) with 1076732275;
  try change (4294967295 - u32 2940772411) with 1354194884;
  try change (4294967295 - u32 3132021990) with 1162945305.

Theorem scalar8x32_reduce_512_wp l0 l1 l2 l3 l4 l5 l6 l7 l8 l9 l10 l11 l12 l13 l14 l15 :
  0 <= l0 < 2^32 -> 0 <= l1 < 2^32 -> 0 <= l2 < 2^32 -> 0 <= l3 < 2^32 -> 0 <= l4 < 2^32 -> 0 <= l5 < 2^32 -> 0 <= l6 < 2^32 -> 0 <= l7 < 2^32 -> 0 <= l8 < 2^32 -> 0 <= l9 < 2^32 -> 0 <= l10 < 2^32 -> 0 <= l11 < 2^32 -> 0 <= l12 < 2^32 -> 0 <= l13 < 2^32 -> 0 <= l14 < 2^32 -> 0 <= l15 < 2^32 ->
  forall Q : Z -> Z -> Z -> Z -> Z -> Z -> Z -> Z -> Prop,
  (forall r0 r1 r2 r3 r4 r5 r6 r7,
    (0 <= r0 < 2^32 /\ 0 <= r1 < 2^32 /\ 0 <= r2 < 2^32 /\ 0 <= r3 < 2^32 /\ 0 <= r4 < 2^32 /\ 0 <= r5 < 2^32 /\ 0 <= r6 < 2^32 /\ 0 <= r7 < 2^32) /\
    val8w r0 r1 r2 r3 r4 r5 r6 r7 = val16w l0 l1 l2 l3 l4 l5 l6 l7 l8 l9 l10 l11 l12 l13 l14 l15 mod N256 -> Q r0 r1 r2 r3 r4 r5 r6 r7) ->
  scalar8x32_reduce_512_k l0 l1 l2 l3 l4 l5 l6 l7 l8 l9 l10 l11 l12 l13 l14 l15 Q.
Proof.
  intros H0 H1 H2 H3 H4 H5 H6 H7 H8 H9 H10 H11 H12 H13 H14 H15 Q HQ. hide HQ.
  unfold scalar8x32_reduce_512_k.
  do 8 copy.
  (* m[0..12] = l[0..7] + l[8..15] * N_C *)
  init32. muladd_fast32. extract_fast32.
  sumadd_fast32. do 2 muladd32. extract32.
  sumadd32. do 3 muladd32. extract32.
  sumadd32. do 4 muladd32. extract32.
  sumadd32. do 4 muladd32. sumadd32. extract32.
  sumadd32. do 4 muladd32. sumadd32. extract32.
  sumadd32. do 4 muladd32. sumadd32. extract32.
  sumadd32. do 4 muladd32. sumadd32. extract32.
  do 3 muladd32. sumadd32. extract32.
  do 2 muladd32. sumadd32. extract32.
  muladd32. sumadd32. extract32.
  sumadd_fast32. extract_fast32.
  last_word.
  (* p[0..8] = m[0..7] + m[8..12] * N_C *)
  init32. muladd_fast32. extract_fast32.
  sumadd_fast32. do 2 muladd32. extract32.
  sumadd32. do 3 muladd32. extract32.
  sumadd32. do 4 muladd32. extract32.
  sumadd32. do 4 muladd32. sumadd32. extract32.
  sumadd32. do 3 muladd32. sumadd32. extract32.
  sumadd32. do 2 muladd32. sumadd32. extract32.
  sumadd_fast32. muladd_fast32. sumadd_fast32. extract_fast32.
  top_word.
  bintro. match goal with Q : ?p = u32 _ |- _ => rewrite u32_small in Q by lia; assert (P8 : 0 <= p < 5) by lia; hide Q end.
  assert (SM : val8w m0 m1 m2 m3 m4 m5 m6 m7 + (m8 + m9 * 2^32 + m10 * 2^64 + m11 * 2^96 + m12 * 2^128) * 2^256 =
               val8w l0 l1 l2 l3 l4 l5 l6 l7 + val8w l8 l9 l10 l11 l12 l13 l14 l15 * (2^256 - N256)) by (rewrite <- NC32_ok; unfold val8w; reveal; norm; lia).
  assert (SP : val8w p0 p1 p2 p3 p4 p5 p6 p7 + p8 * 2^256 =
               val8w m0 m1 m2 m3 m4 m5 m6 m7 + (m8 + m9 * 2^32 + m10 * 2^64 + m11 * 2^96 + m12 * 2^128) * (2^256 - N256)) by (rewrite <- NC32_ok; unfold val8w; reveal; norm; lia).
  forget_sums.
  (* r[0..7] = p[0..7] + p8 * N_C, with a carry c6 out of 256 bits *)
  do 8 (wide (2^64); split32).
  assert (A1 : val8w r_d0 r_d1 r_d2 r_d3 r_d4 r_d5 r_d6 r_d7 + c6 * 2^256 = val8w p0 p1 p2 p3 p4 p5 p6 p7 + p8 * (2^256 - N256)) by (rewrite <- NC32_ok; unfold val8w; reveal; norm; lia).
  assert (BP : 0 <= val8w p0 p1 p2 p3 p4 p5 p6 p7 < 2^256) by (apply val8w_range; assumption).
  assert (BR : 0 <= val8w r_d0 r_d1 r_d2 r_d3 r_d4 r_d5 r_d6 r_d7 < 2^256) by (apply val8w_range; assumption).
  assert (A3 : 0 <= c6 <= 1) by (clear - A1 BP BR P8; unfold N256 in A1; lia).
  forget_sums.
  (* the final reduction adds N_C once for the carry and once if the value is at least n *)
  flag_step (wrap_wp (2^32)) scalar8x32_check_overflow_flag (N256 <=? val8w r_d0 r_d1 r_d2 r_d3 r_d4 r_d5 r_d6 r_d7).
  do 7 (wide (2^64); split32). wide (2^64). trunc32.
  apply bind_intro; intros ? _. unhide HQ. apply HQ. clear HQ. split; [limbs_ok|].
  assert (A2 : val8w r_d8 r_d9 r_d10 r_d11 r_d12 r_d13 r_d14 r_d15 + ctop * 2^256 = val8w r_d0 r_d1 r_d2 r_d3 r_d4 r_d5 r_d6 r_d7 + (c6 + flag) * (2^256 - N256))
    by (rewrite <- NC32_ok; unfold val8w; reveal; norm; lia).
  eapply reduce_folds; [apply val16w_split | exact SM | exact SP | exact A1 | exact A2 | reflexivity | try (apply val8w_range; assumption) ..]; lia.
Qed.

Theorem scalar8x32_reduce_512_correct l0 l1 l2 l3 l4 l5 l6 l7 l8 l9 l10 l11 l12 l13 l14 l15 :
  0 <= l0 < 2^32 -> 0 <= l1 < 2^32 -> 0 <= l2 < 2^32 -> 0 <= l3 < 2^32 -> 0 <= l4 < 2^32 -> 0 <= l5 < 2^32 -> 0 <= l6 < 2^32 -> 0 <= l7 < 2^32 -> 0 <= l8 < 2^32 -> 0 <= l9 < 2^32 -> 0 <= l10 < 2^32 -> 0 <= l11 < 2^32 -> 0 <= l12 < 2^32 -> 0 <= l13 < 2^32 -> 0 <= l14 < 2^32 -> 0 <= l15 < 2^32 ->
  scalar8x32_reduce_512_k l0 l1 l2 l3 l4 l5 l6 l7 l8 l9 l10 l11 l12 l13 l14 l15 (fun r0 r1 r2 r3 r4 r5 r6 r7 =>
    (0 <= r0 < 2^32 /\ 0 <= r1 < 2^32 /\ 0 <= r2 < 2^32 /\ 0 <= r3 < 2^32 /\ 0 <= r4 < 2^32 /\ 0 <= r5 < 2^32 /\ 0 <= r6 < 2^32 /\ 0 <= r7 < 2^32) /\
    val8w r0 r1 r2 r3 r4 r5 r6 r7 = val16w l0 l1 l2 l3 l4 l5 l6 l7 l8 l9 l10 l11 l12 l13 l14 l15 mod N256).
Proof.
  intros. apply scalar8x32_reduce_512_wp; try assumption. intros r0 r1 r2 r3 r4 r5 r6 r7 HP. exact HP.
Qed.
