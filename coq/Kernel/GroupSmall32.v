(* Proofs ABOUT the small group functions of src/group_impl.h in the 32-bit-limb configuration (USE_FORCE_WIDEMUL_INT64), regenerated as
   Gen/ge_set_gej_zinv32.v, Gen/ge_set_ge_zinv32.v and Gen/gej_rescale32.v with the 10x26 field operations kept as calls: for ALL inputs
   inside the domain of the 10x26 multiplication the result limbs are below the bounds a multiplication guarantees (lim32 1) and the values
   are the specified products modulo p.  Same statements as Kernel/GroupSmall.v (64-bit limbs). *)
From Coq Require Import ZArith Lia List Bool Setoid Morphisms.
Require Import Kernel.Bind Kernel.Field10x26 Kernel.FieldWp32 Kernel.Cong Kernel.GejDouble32.
Require Import Gen.fe10x26_mul_inner Gen.fe10x26_sqr_inner Gen.ge_set_gej_zinv32 Gen.ge_set_ge_zinv32 Gen.gej_rescale32.
Import ListNotations.
Local Open Scope Z_scope.
Local Opaque fe10x26_mul_inner_k fe10x26_sqr_inner_k.

Theorem ge_set_gej_zinv32_correct inf zi0 zi1 zi2 zi3 zi4 zi5 zi6 zi7 zi8 zi9 x0 x1 x2 x3 x4 x5 x6 x7 x8 x9 y0 y1 y2 y3 y4 y5 y6 y7 y8 y9 :
  lim32 8 zi0 zi1 zi2 zi3 zi4 zi5 zi6 zi7 zi8 zi9 -> lim32 8 x0 x1 x2 x3 x4 x5 x6 x7 x8 x9 -> lim32 8 y0 y1 y2 y3 y4 y5 y6 y7 y8 y9 ->
  ge_set_gej_zinv32_k inf zi0 zi1 zi2 zi3 zi4 zi5 zi6 zi7 zi8 zi9 x0 x1 x2 x3 x4 x5 x6 x7 x8 x9 y0 y1 y2 y3 y4 y5 y6 y7 y8 y9 (fun rinf rx0 rx1 rx2 rx3 rx4 rx5 rx6 rx7 rx8 rx9 ry0 ry1 ry2 ry3 ry4 ry5 ry6 ry7 ry8 ry9 =>
    let X := val10 x0 x1 x2 x3 x4 x5 x6 x7 x8 x9 in let Y := val10 y0 y1 y2 y3 y4 y5 y6 y7 y8 y9 in let ZI := val10 zi0 zi1 zi2 zi3 zi4 zi5 zi6 zi7 zi8 zi9 in
    rinf = inf /\ lim32 1 rx0 rx1 rx2 rx3 rx4 rx5 rx6 rx7 rx8 rx9 /\ lim32 1 ry0 ry1 ry2 ry3 ry4 ry5 ry6 ry7 ry8 ry9 /\
    cong (val10 rx0 rx1 rx2 rx3 rx4 rx5 rx6 rx7 rx8 rx9) (X * (ZI * ZI)) /\ cong (val10 ry0 ry1 ry2 ry3 ry4 ry5 ry6 ry7 ry8 ry9) (Y * (ZI * ZI * ZI))).
Proof.
  intros Hz Hx Hy. apply lim32_lt26 in Hz, Hx, Hy.
  unfold ge_set_gej_zinv32_k.
  sqr_step. mul_step. mul_step. mul_step. apply bind_intro; intros rinf Hinf.
  split; [exact Hinf|]. split; [lim32_of|]. split; [lim32_of|].
  split.
  - rewrite C1, C. reflexivity.
  - rewrite C2, C0, C. reflexivity.
Qed.

Theorem ge_set_ge_zinv32_correct inf zi0 zi1 zi2 zi3 zi4 zi5 zi6 zi7 zi8 zi9 x0 x1 x2 x3 x4 x5 x6 x7 x8 x9 y0 y1 y2 y3 y4 y5 y6 y7 y8 y9 :
  lim32 8 zi0 zi1 zi2 zi3 zi4 zi5 zi6 zi7 zi8 zi9 -> lim32 8 x0 x1 x2 x3 x4 x5 x6 x7 x8 x9 -> lim32 8 y0 y1 y2 y3 y4 y5 y6 y7 y8 y9 ->
  ge_set_ge_zinv32_k inf zi0 zi1 zi2 zi3 zi4 zi5 zi6 zi7 zi8 zi9 x0 x1 x2 x3 x4 x5 x6 x7 x8 x9 y0 y1 y2 y3 y4 y5 y6 y7 y8 y9 (fun rinf rx0 rx1 rx2 rx3 rx4 rx5 rx6 rx7 rx8 rx9 ry0 ry1 ry2 ry3 ry4 ry5 ry6 ry7 ry8 ry9 =>
    let X := val10 x0 x1 x2 x3 x4 x5 x6 x7 x8 x9 in let Y := val10 y0 y1 y2 y3 y4 y5 y6 y7 y8 y9 in let ZI := val10 zi0 zi1 zi2 zi3 zi4 zi5 zi6 zi7 zi8 zi9 in
    rinf = inf /\ lim32 1 rx0 rx1 rx2 rx3 rx4 rx5 rx6 rx7 rx8 rx9 /\ lim32 1 ry0 ry1 ry2 ry3 ry4 ry5 ry6 ry7 ry8 ry9 /\
    cong (val10 rx0 rx1 rx2 rx3 rx4 rx5 rx6 rx7 rx8 rx9) (X * (ZI * ZI)) /\ cong (val10 ry0 ry1 ry2 ry3 ry4 ry5 ry6 ry7 ry8 ry9) (Y * (ZI * ZI * ZI))).
Proof.
  intros Hz Hx Hy. apply lim32_lt26 in Hz, Hx, Hy.
  unfold ge_set_ge_zinv32_k.
  sqr_step. mul_step. mul_step. mul_step. apply bind_intro; intros rinf Hinf.
  split; [exact Hinf|]. split; [lim32_of|]. split; [lim32_of|].
  split.
  - rewrite C1, C. reflexivity.
  - rewrite C2, C0, C. reflexivity.
Qed.

Theorem gej_rescale32_correct s0 s1 s2 s3 s4 s5 s6 s7 s8 s9 x0 x1 x2 x3 x4 x5 x6 x7 x8 x9 y0 y1 y2 y3 y4 y5 y6 y7 y8 y9 z0 z1 z2 z3 z4 z5 z6 z7 z8 z9 :
  lim32 8 s0 s1 s2 s3 s4 s5 s6 s7 s8 s9 -> lim32 8 x0 x1 x2 x3 x4 x5 x6 x7 x8 x9 -> lim32 8 y0 y1 y2 y3 y4 y5 y6 y7 y8 y9 -> lim32 8 z0 z1 z2 z3 z4 z5 z6 z7 z8 z9 ->
  gej_rescale32_k s0 s1 s2 s3 s4 s5 s6 s7 s8 s9 x0 x1 x2 x3 x4 x5 x6 x7 x8 x9 y0 y1 y2 y3 y4 y5 y6 y7 y8 y9 z0 z1 z2 z3 z4 z5 z6 z7 z8 z9 (fun rx0 rx1 rx2 rx3 rx4 rx5 rx6 rx7 rx8 rx9 ry0 ry1 ry2 ry3 ry4 ry5 ry6 ry7 ry8 ry9 rz0 rz1 rz2 rz3 rz4 rz5 rz6 rz7 rz8 rz9 =>
    let X := val10 x0 x1 x2 x3 x4 x5 x6 x7 x8 x9 in let Y := val10 y0 y1 y2 y3 y4 y5 y6 y7 y8 y9 in let Z := val10 z0 z1 z2 z3 z4 z5 z6 z7 z8 z9 in let S := val10 s0 s1 s2 s3 s4 s5 s6 s7 s8 s9 in
    lim32 1 rx0 rx1 rx2 rx3 rx4 rx5 rx6 rx7 rx8 rx9 /\ lim32 1 ry0 ry1 ry2 ry3 ry4 ry5 ry6 ry7 ry8 ry9 /\ lim32 1 rz0 rz1 rz2 rz3 rz4 rz5 rz6 rz7 rz8 rz9 /\
    cong (val10 rx0 rx1 rx2 rx3 rx4 rx5 rx6 rx7 rx8 rx9) (X * (S * S)) /\ cong (val10 ry0 ry1 ry2 ry3 ry4 ry5 ry6 ry7 ry8 ry9) (Y * (S * S) * S) /\ cong (val10 rz0 rz1 rz2 rz3 rz4 rz5 rz6 rz7 rz8 rz9) (Z * S)).
Proof.
  intros Hs Hx Hy Hz. apply lim32_lt26 in Hs, Hx, Hy, Hz.
  unfold gej_rescale32_k.
  sqr_step. mul_step. mul_step. mul_step. mul_step.
  split; [lim32_of|]. split; [lim32_of|]. split; [lim32_of|].
  split; [|split].
  - rewrite C0, C. reflexivity.
  - rewrite C2, C1, C. reflexivity.
  - rewrite C3. reflexivity.
Qed.
