(* The bind-style translations Gen/scalar_mul_512b.v and Gen/scalar_sqr_512b.v of the 4x64 multiplication and squaring (the same C
   functions as Gen/scalar_mul_512.v / scalar_sqr_512.v, which are convertible with them): their theorems in weakest-precondition form,
   as secp256k1_scalar_mul / scalar_sqr compose them with scalar_reduce_512.  The stepping is done once, in ScalarMul512.v and
   ScalarSqr512.v. *)
From Coq Require Import ZArith List Bool.
Require Import Kernel.CSem Kernel.Bind Kernel.Scalar4x64 Kernel.ScalarMul512 Kernel.ScalarSqr512.
Require Import Gen.scalar_mul_512 Gen.scalar_sqr_512 Gen.scalar_mul_512b Gen.scalar_sqr_512b.
Import ListNotations.
Local Open Scope Z_scope.

Theorem scalar_mul_512b_wp a0 a1 a2 a3 b0 b1 b2 b3 :
  0 <= a0 < 2^64 -> 0 <= a1 < 2^64 -> 0 <= a2 < 2^64 -> 0 <= a3 < 2^64 ->
  0 <= b0 < 2^64 -> 0 <= b1 < 2^64 -> 0 <= b2 < 2^64 -> 0 <= b3 < 2^64 ->
  forall Q : Z -> Z -> Z -> Z -> Z -> Z -> Z -> Z -> Prop,
  (forall l0 l1 l2 l3 l4 l5 l6 l7,
    (0 <= l0 < 2^64 /\ 0 <= l1 < 2^64 /\ 0 <= l2 < 2^64 /\ 0 <= l3 < 2^64 /\ 0 <= l4 < 2^64 /\ 0 <= l5 < 2^64 /\ 0 <= l6 < 2^64 /\ 0 <= l7 < 2^64) /\
    val8 l0 l1 l2 l3 l4 l5 l6 l7 = val4 a0 a1 a2 a3 * val4 b0 b1 b2 b3 -> Q l0 l1 l2 l3 l4 l5 l6 l7) ->
  scalar_mul_512b_k a0 a1 a2 a3 b0 b1 b2 b3 Q.
Proof. exact (scalar_mul_512_wp a0 a1 a2 a3 b0 b1 b2 b3). Qed.

Theorem scalar_sqr_512b_wp a0 a1 a2 a3 :
  0 <= a0 < 2^64 -> 0 <= a1 < 2^64 -> 0 <= a2 < 2^64 -> 0 <= a3 < 2^64 ->
  forall Q : Z -> Z -> Z -> Z -> Z -> Z -> Z -> Z -> Prop,
  (forall l0 l1 l2 l3 l4 l5 l6 l7,
    (0 <= l0 < 2^64 /\ 0 <= l1 < 2^64 /\ 0 <= l2 < 2^64 /\ 0 <= l3 < 2^64 /\ 0 <= l4 < 2^64 /\ 0 <= l5 < 2^64 /\ 0 <= l6 < 2^64 /\ 0 <= l7 < 2^64) /\
    val8 l0 l1 l2 l3 l4 l5 l6 l7 = val4 a0 a1 a2 a3 * val4 a0 a1 a2 a3 -> Q l0 l1 l2 l3 l4 l5 l6 l7) ->
  scalar_sqr_512b_k a0 a1 a2 a3 Q.
Proof. exact (scalar_sqr_512_wp a0 a1 a2 a3). Qed.
