(* The 10x26 field primitives in the form of Kernel/FieldWp.v: weakest preconditions over limb vectors bounded by a pair of
   multipliers.  [lt26 m t]: limbs below m * 2^26, top limb below t * 2^22; magnitude k implies [lt26 (2k) (2k)], the results of
   a multiplication satisfy [lt26 2 1] (their third limb may reach 2^27). *)
From Coq Require Import ZArith Lia List Bool.
Require Import Kernel.Bind Kernel.Bits Kernel.Field5x52 Kernel.Field10x26 Kernel.Field10x26Wp Kernel.Field10x26Ntz Kernel.Cong.
Require Import Gen.fe10x26_mul_inner Gen.fe10x26_sqr_inner Gen.fe10x26_add Gen.fe10x26_negate Gen.fe10x26_half Gen.fe10x26_mul_int
  Gen.fe10x26_cmov Gen.fe10x26_ntz.
Import ListNotations.
Local Open Scope Z_scope.

Definition lt26 (m t a0 a1 a2 a3 a4 a5 a6 a7 a8 a9 : Z) : Prop :=
  0 <= a0 < m * 2^26 /\ 0 <= a1 < m * 2^26 /\ 0 <= a2 < m * 2^26 /\ 0 <= a3 < m * 2^26 /\ 0 <= a4 < m * 2^26 /\
  0 <= a5 < m * 2^26 /\ 0 <= a6 < m * 2^26 /\ 0 <= a7 < m * 2^26 /\ 0 <= a8 < m * 2^26 /\ 0 <= a9 < t * 2^22.

Lemma lt26_mono m t m' t' a0 a1 a2 a3 a4 a5 a6 a7 a8 a9 :
  lt26 m t a0 a1 a2 a3 a4 a5 a6 a7 a8 a9 -> m <= m' -> t <= t' -> lt26 m' t' a0 a1 a2 a3 a4 a5 a6 a7 a8 a9.
Proof. unfold lt26. lia. Qed.

Section Wp.
Variable Q : Z -> Z -> Z -> Z -> Z -> Z -> Z -> Z -> Z -> Z -> Prop.

Lemma mul26_wp a0 a1 a2 a3 a4 a5 a6 a7 a8 a9 b0 b1 b2 b3 b4 b5 b6 b7 b8 b9 :
  lt26 16 16 a0 a1 a2 a3 a4 a5 a6 a7 a8 a9 -> lt26 16 16 b0 b1 b2 b3 b4 b5 b6 b7 b8 b9 ->
  (forall r0 r1 r2 r3 r4 r5 r6 r7 r8 r9, lt26 2 1 r0 r1 r2 r3 r4 r5 r6 r7 r8 r9 ->
     cong (val10 r0 r1 r2 r3 r4 r5 r6 r7 r8 r9) (val10 a0 a1 a2 a3 a4 a5 a6 a7 a8 a9 * val10 b0 b1 b2 b3 b4 b5 b6 b7 b8 b9) ->
     Q r0 r1 r2 r3 r4 r5 r6 r7 r8 r9) ->
  fe10x26_mul_inner_k a0 a1 a2 a3 a4 a5 a6 a7 a8 a9 b0 b1 b2 b3 b4 b5 b6 b7 b8 b9 Q.
Proof.
  unfold lt26. intros Ha Hb HQ. apply fe10x26_mul_inner_wp; try lia.
  intros r0 r1 r2 r3 r4 r5 r6 r7 r8 r9 [B C]. apply HQ; [lia | apply cong_of_mod, C].
Qed.

Lemma sqr26_wp a0 a1 a2 a3 a4 a5 a6 a7 a8 a9 :
  lt26 16 16 a0 a1 a2 a3 a4 a5 a6 a7 a8 a9 ->
  (forall r0 r1 r2 r3 r4 r5 r6 r7 r8 r9, lt26 2 1 r0 r1 r2 r3 r4 r5 r6 r7 r8 r9 ->
     cong (val10 r0 r1 r2 r3 r4 r5 r6 r7 r8 r9) (val10 a0 a1 a2 a3 a4 a5 a6 a7 a8 a9 * val10 a0 a1 a2 a3 a4 a5 a6 a7 a8 a9) ->
     Q r0 r1 r2 r3 r4 r5 r6 r7 r8 r9) ->
  fe10x26_sqr_inner_k a0 a1 a2 a3 a4 a5 a6 a7 a8 a9 Q.
Proof.
  unfold lt26. intros Ha HQ. apply fe10x26_sqr_inner_wp; try lia.
  intros r0 r1 r2 r3 r4 r5 r6 r7 r8 r9 [B C]. apply HQ; [lia | apply cong_of_mod, C].
Qed.

Lemma add26_wp m t m' t' r0 r1 r2 r3 r4 r5 r6 r7 r8 r9 a0 a1 a2 a3 a4 a5 a6 a7 a8 a9 :
  lt26 m t r0 r1 r2 r3 r4 r5 r6 r7 r8 r9 -> lt26 m' t' a0 a1 a2 a3 a4 a5 a6 a7 a8 a9 -> m + m' <= 64 -> t + t' <= 1024 ->
  (forall s0 s1 s2 s3 s4 s5 s6 s7 s8 s9, lt26 (m + m') (t + t') s0 s1 s2 s3 s4 s5 s6 s7 s8 s9 ->
     val10 s0 s1 s2 s3 s4 s5 s6 s7 s8 s9 = val10 r0 r1 r2 r3 r4 r5 r6 r7 r8 r9 + val10 a0 a1 a2 a3 a4 a5 a6 a7 a8 a9 ->
     Q s0 s1 s2 s3 s4 s5 s6 s7 s8 s9) ->
  fe10x26_add_k r0 r1 r2 r3 r4 r5 r6 r7 r8 r9 a0 a1 a2 a3 a4 a5 a6 a7 a8 a9 Q.
Proof.
  unfold lt26. intros Hr Ha Hm Ht HQ. apply fe10x26_add_wp; try lia.
  intros s0 s1 s2 s3 s4 s5 s6 s7 s8 s9 -> -> -> -> -> -> -> -> -> -> V. apply HQ; [lia | exact V].
Qed.

Lemma mul_int26_wp m t r0 r1 r2 r3 r4 r5 r6 r7 r8 r9 a :
  lt26 m t r0 r1 r2 r3 r4 r5 r6 r7 r8 r9 -> 0 < a <= 32 -> m * a <= 64 -> t * a <= 1024 ->
  (forall s0 s1 s2 s3 s4 s5 s6 s7 s8 s9, lt26 (m * a) (t * a) s0 s1 s2 s3 s4 s5 s6 s7 s8 s9 ->
     val10 s0 s1 s2 s3 s4 s5 s6 s7 s8 s9 = val10 r0 r1 r2 r3 r4 r5 r6 r7 r8 r9 * a -> Q s0 s1 s2 s3 s4 s5 s6 s7 s8 s9) ->
  fe10x26_mul_int_k r0 r1 r2 r3 r4 r5 r6 r7 r8 r9 a Q.
Proof.
  unfold lt26. intros [H0 [H1 [H2 [H3 [H4 [H5 [H6 [H7 [H8 H9]]]]]]]]] Ha Hm Ht HQ.
  assert (L : forall x k, 0 <= x < k -> 0 <= x * a < k * a) by (intros; nia).
  apply L in H0, H1, H2, H3, H4, H5, H6, H7, H8, H9. clear L.
  apply fe10x26_mul_int_wp; try lia.
  intros s0 s1 s2 s3 s4 s5 s6 s7 s8 s9 -> -> -> -> -> -> -> -> -> -> V. apply HQ; [lia | exact V].
Qed.

Lemma negate26_wp mm tt a0 a1 a2 a3 a4 a5 a6 a7 a8 a9 m :
  lt26 mm tt a0 a1 a2 a3 a4 a5 a6 a7 a8 a9 -> 0 <= m <= 31 -> mm <= 2 * m + 1 -> tt <= 2 * m + 1 ->
  (forall r0 r1 r2 r3 r4 r5 r6 r7 r8 r9, lt26 (2 * m + 2) (2 * m + 2) r0 r1 r2 r3 r4 r5 r6 r7 r8 r9 ->
     r0 <= 2 * (m + 1) * 67108863 /\ r1 <= 2 * (m + 1) * 67108863 /\ r2 <= 2 * (m + 1) * 67108863 /\ r3 <= 2 * (m + 1) * 67108863 /\
     r4 <= 2 * (m + 1) * 67108863 /\ r5 <= 2 * (m + 1) * 67108863 /\ r6 <= 2 * (m + 1) * 67108863 /\ r7 <= 2 * (m + 1) * 67108863 /\
     r8 <= 2 * (m + 1) * 67108863 /\ r9 <= 2 * (m + 1) * 4194303 ->
     val10 r0 r1 r2 r3 r4 r5 r6 r7 r8 r9 = 2 * (m + 1) * P256 - val10 a0 a1 a2 a3 a4 a5 a6 a7 a8 a9 -> Q r0 r1 r2 r3 r4 r5 r6 r7 r8 r9) ->
  fe10x26_negate_k a0 a1 a2 a3 a4 a5 a6 a7 a8 a9 m Q.
Proof.
  unfold lt26. intros Ha Hm Hmm Htt HQ. apply fe10x26_negate_wp; try lia.
  intros r0 r1 r2 r3 r4 r5 r6 r7 r8 r9 -> -> -> -> -> -> -> -> -> -> V. apply HQ; [lia | lia | exact V].
Qed.

(* halving: the multipliers follow the library's rule (m >> 1) + 1 for the magnitude *)
Lemma half26_wp m t t0 t1 t2 t3 t4 t5 t6 t7 t8 t9 :
  lt26 m t t0 t1 t2 t3 t4 t5 t6 t7 t8 t9 -> m <= 32 -> t <= 32 ->
  (forall r0 r1 r2 r3 r4 r5 r6 r7 r8 r9, lt26 ((m + 1) / 2 + 1) (t / 2 + 1) r0 r1 r2 r3 r4 r5 r6 r7 r8 r9 ->
     2 * val10 r0 r1 r2 r3 r4 r5 r6 r7 r8 r9 = val10 t0 t1 t2 t3 t4 t5 t6 t7 t8 t9 + (t0 mod 2) * P256 ->
     Q r0 r1 r2 r3 r4 r5 r6 r7 r8 r9) ->
  fe10x26_half_k t0 t1 t2 t3 t4 t5 t6 t7 t8 t9 Q.
Proof.
  unfold lt26. intros Ht Hm Htt HQ. apply fe10x26_half_wp; try lia.
  intros r0 r1 r2 r3 r4 r5 r6 r7 r8 r9 B V. apply HQ; [dlia | exact V].
Qed.

Lemma cmov26_wp r0 r1 r2 r3 r4 r5 r6 r7 r8 r9 a0 a1 a2 a3 a4 a5 a6 a7 a8 a9 flag :
  lt26 64 1024 r0 r1 r2 r3 r4 r5 r6 r7 r8 r9 -> lt26 64 1024 a0 a1 a2 a3 a4 a5 a6 a7 a8 a9 ->
  (flag = 0 /\ Q r0 r1 r2 r3 r4 r5 r6 r7 r8 r9) \/ (flag = 1 /\ Q a0 a1 a2 a3 a4 a5 a6 a7 a8 a9) ->
  fe10x26_cmov_k r0 r1 r2 r3 r4 r5 r6 r7 r8 r9 a0 a1 a2 a3 a4 a5 a6 a7 a8 a9 flag Q.
Proof. unfold lt26. intros Hr Ha HQ. apply fe10x26_cmov_wp; [lia | exact HQ]. Qed.

End Wp.

Lemma ntz26_wp (Q : Z -> Prop) r0 r1 r2 r3 r4 r5 r6 r7 r8 r9 :
  lt26 32 32 r0 r1 r2 r3 r4 r5 r6 r7 r8 r9 ->
  (forall ret, ret = (if (val10 r0 r1 r2 r3 r4 r5 r6 r7 r8 r9) mod P256 =? 0 then 1 else 0) -> Q ret) ->
  fe10x26_ntz_k r0 r1 r2 r3 r4 r5 r6 r7 r8 r9 Q.
Proof. unfold lt26. intros Hr HQ. apply fe10x26_ntz_wp; [lia | exact HQ]. Qed.

(* the step tactics of Kernel/FieldWp.v, for ten limbs *)
Ltac cmp := repeat split; discriminate.
Ltac within := eapply lt26_mono; [eassumption | cmp | cmp].
Ltac mul_step := apply mul26_wp; [within | within | intros ? ? ? ? ? ? ? ? ? ? ? ?C].
Ltac sqr_step := apply sqr26_wp; [within | intros ? ? ? ? ? ? ? ? ? ? ? ?C].
Ltac add_step := eapply add26_wp; [eassumption | eassumption | cmp | cmp | intros ? ? ? ? ? ? ? ? ? ? ? ?V].
Ltac mul_int_step := eapply mul_int26_wp; [eassumption | cmp | cmp | cmp | intros ? ? ? ? ? ? ? ? ? ? ? ?V].
Ltac negate_step := eapply negate26_wp; [eassumption | cmp | cmp | cmp | intros ? ? ? ? ? ? ? ? ? ? ? _ ?V].
Ltac half_step := eapply half26_wp; [eassumption | cmp | cmp | intros ? ? ? ? ? ? ? ? ? ? ? ?V].
Ltac copy_step := do 10 (apply bind_intro; intros ? ->).
Ltac cmov0_step := apply cmov26_wp; [within | within | left; split; [reflexivity|]].
Ltac cmov1_step := apply cmov26_wp; [within | within | right; split; [reflexivity|]].
Ltac ntz_step := apply ntz26_wp; [within | intros ? ?N].
