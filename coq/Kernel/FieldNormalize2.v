(* Proofs ABOUT two more regenerated normalisation routines of the 5x52 field (Gen/fe_impl_normalize_weak.v,
   Gen/fe_impl_normalizes_to_zero.v): for ALL limb values of magnitude up to 32, weak normalisation returns a magnitude-1
   representative of the same residue, and normalizes_to_zero returns 1 exactly when the value is 0 modulo p. *)
From Coq Require Import ZArith Lia List Bool.
Require Import Kernel.Bits Kernel.Field5x52 Kernel.FieldNormalize Gen.fe_impl_normalize_weak Gen.fe_impl_normalizes_to_zero.
Import ListNotations.
Local Open Scope Z_scope.

Theorem fe_normalize_weak_correct r0 r1 r2 r3 r4 :
  0 <= r0 < 2^58 -> 0 <= r1 < 2^58 -> 0 <= r2 < 2^58 -> 0 <= r3 < 2^58 -> 0 <= r4 < 2^54 ->
  fe_impl_normalize_weak_k r0 r1 r2 r3 r4 (fun t0 t1 t2 t3 t4 =>
    0 <= t0 < 2^52 /\ 0 <= t1 < 2^52 /\ 0 <= t2 < 2^52 /\ 0 <= t3 < 2^52 /\ 0 <= t4 < 2^48 + 2^7 /\
    (val5 t0 t1 t2 t3 t4 - val5 r0 r1 r2 r3 r4) mod P256 = 0).
Proof.
  intros H0 H1 H2 H3 H4.
  destruct (first_pass r0 r1 r2 r3 r4 H0 H1 H2 H3 H4)
    as (s0 & s1 & s2 & s3 & t0 & t1 & t2 & t3 & t4 & E0 & E1 & E2 & E3 & E4 & L0 & L1 & L2 & L3 & (T0 & T1 & T2 & T3 & T4) & V).
  cbv beta delta [fe_impl_normalize_weak_k]. cbv zeta. rewrite E0, E1, E2, E3, E4, L0, L1, L2, L3.
  repeat (split; [assumption|]). rewrite V.
  replace (val5 r0 r1 r2 r3 r4 - r4 / 2^48 * P256 - val5 r0 r1 r2 r3 r4) with (- (r4 / 2^48) * P256) by ring.
  apply Z.mod_mul. discriminate.
Qed.

(* the two tests of normalizes_to_zero on the limbs of a value below 2p: all limbs 0, or all limbs those of p
   (XOR with the complement of a limb of p gives all ones exactly on that limb) *)
Lemma zero_test t0 t1 t2 t3 t4 :
  0 <= t0 < 2^52 -> 0 <= t1 < 2^52 -> 0 <= t2 < 2^52 -> 0 <= t3 < 2^52 ->
  (Z.lor (Z.lor (Z.lor (Z.lor t0 t1) t2) t3) t4 =? 0) = (val5 t0 t1 t2 t3 t4 =? 0).
Proof.
  intros T0 T1 T2 T3. rewrite !lor_eq0b. apply eq_true_iff_eq. rewrite !andb_true_iff, !Z.eqb_eq. split.
  - intros [[[[-> ->] ->] ->] ->]. reflexivity.
  - intros E. apply (val5_inj _ _ _ _ _ 0 0 0 0 0) in E; try assumption; try (split; discriminate || reflexivity). tauto.
Qed.

Lemma p_test t0 t1 t2 t3 t4 :
  0 <= t0 < 2^52 -> 0 <= t1 < 2^52 -> 0 <= t2 < 2^52 -> 0 <= t3 < 2^52 -> 0 <= t4 < 2^52 ->
  (Z.land (Z.land (Z.land (Z.land (Z.lxor t0 4294968272) t1) t2) t3) (Z.lxor t4 4222124650659840) =? 4503599627370495)
  = (val5 t0 t1 t2 t3 t4 =? P256).
Proof.
  intros T0 T1 T2 T3 T4. apply eq_true_iff_eq.
  rewrite !Z.eqb_eq, !(land_eq_ones _ _ 52), 2!lxor_eq_iff, <- P256_val5
    by (repeat first [apply land_range | apply lxor_range]; assumption || (split; discriminate || reflexivity)).
  split.
  - intros [[[[-> ->] ->] ->] ->]. reflexivity.
  - intros E. apply val5_inj in E; try assumption; try (split; discriminate || reflexivity). tauto.
Qed.

(* for any continuation, so that callers that pass one need no conversion through the let chain *)
Lemma fe_normalizes_to_zero_k_eq {T} (k : Z -> T) r0 r1 r2 r3 r4 :
  0 <= r0 < 2^58 -> 0 <= r1 < 2^58 -> 0 <= r2 < 2^58 -> 0 <= r3 < 2^58 -> 0 <= r4 < 2^54 ->
  fe_impl_normalizes_to_zero_k r0 r1 r2 r3 r4 k = k (if (val5 r0 r1 r2 r3 r4) mod P256 =? 0 then 1 else 0).
Proof.
  intros H0 H1 H2 H3 H4.
  destruct (first_pass r0 r1 r2 r3 r4 H0 H1 H2 H3 H4)
    as (s0 & s1 & s2 & s3 & t0 & t1 & t2 & t3 & t4 & E0 & E1 & E2 & E3 & E4 & L0 & L1 & L2 & L3 & (T0 & T1 & T2 & T3 & T4) & V).
  cbv beta delta [fe_impl_normalizes_to_zero_k]. cbv zeta.
  rewrite E0, E1, E2, E3, E4, L0, L1, L2, L3, zero_test, p_test by (assumption || lia).
  rewrite (mod_eq0_folded _ _ _ P256 eq_refl V) by (clear - T0 T1 T2 T3 T4; unfold val5, P256; lia).
  destruct (_ =? 0), (_ =? P256); reflexivity.
Qed.

Theorem fe_normalizes_to_zero_correct r0 r1 r2 r3 r4 :
  0 <= r0 < 2^58 -> 0 <= r1 < 2^58 -> 0 <= r2 < 2^58 -> 0 <= r3 < 2^58 -> 0 <= r4 < 2^54 ->
  fe_impl_normalizes_to_zero r0 r1 r2 r3 r4 = if (val5 r0 r1 r2 r3 r4) mod P256 =? 0 then 1 else 0.
Proof. exact (fe_normalizes_to_zero_k_eq (fun ret => ret) r0 r1 r2 r3 r4). Qed.
