(* The composition for the default (4x64) configuration: secp256k1_scalar_mul and secp256k1_scalar_sqr (Gen/scalar_mul.v,
   Gen/scalar_sqr.v: the generated callers, which CALL the generated mul_512 / sqr_512 / reduce_512 in continuation-passing form)
   compute the product modulo the group order, canonically, for ALL limb values.  Proved from the component theorems in
   weakest-precondition form. *)
From Coq Require Import ZArith Lia List Bool.
Require Import Kernel.CSem Kernel.Bind Kernel.Scalar4x64 Kernel.ScalarMul512 Kernel.ScalarMul4x64 Kernel.ScalarReduce512.
Require Import Gen.scalar_mul_512b Gen.scalar_sqr_512b Gen.scalar_reduce_512 Gen.scalar_mul Gen.scalar_sqr.
Local Open Scope Z_scope.

Theorem scalar_mul_correct a0 a1 a2 a3 b0 b1 b2 b3 :
  0 <= a0 < 2^64 -> 0 <= a1 < 2^64 -> 0 <= a2 < 2^64 -> 0 <= a3 < 2^64 ->
  0 <= b0 < 2^64 -> 0 <= b1 < 2^64 -> 0 <= b2 < 2^64 -> 0 <= b3 < 2^64 ->
  forall Q : Z -> Z -> Z -> Z -> Prop,
  (forall r0 r1 r2 r3, (0 <= r0 < 2^64 /\ 0 <= r1 < 2^64 /\ 0 <= r2 < 2^64 /\ 0 <= r3 < 2^64) /\
     val4 r0 r1 r2 r3 = (val4 a0 a1 a2 a3 * val4 b0 b1 b2 b3) mod N256 -> Q r0 r1 r2 r3) ->
  scalar_mul_k a0 a1 a2 a3 b0 b1 b2 b3 Q.
Proof.
  intros Ha0 Ha1 Ha2 Ha3 Hb0 Hb1 Hb2 Hb3 Q HQ. unfold scalar_mul_k.
  apply scalar_mul_512b_wp; try assumption.
  intros l0 l1 l2 l3 l4 l5 l6 l7 [Hr Hv].
  apply scalar_reduce_512_wp; try (clear - Hr; tauto).
  intros r0 r1 r2 r3 [Hrr Hrv]. apply HQ. split; [exact Hrr|]. rewrite Hrv, Hv. reflexivity.
Qed.

Theorem scalar_sqr_correct a0 a1 a2 a3 :
  0 <= a0 < 2^64 -> 0 <= a1 < 2^64 -> 0 <= a2 < 2^64 -> 0 <= a3 < 2^64 ->
  forall Q : Z -> Z -> Z -> Z -> Prop,
  (forall r0 r1 r2 r3, (0 <= r0 < 2^64 /\ 0 <= r1 < 2^64 /\ 0 <= r2 < 2^64 /\ 0 <= r3 < 2^64) /\
     val4 r0 r1 r2 r3 = (val4 a0 a1 a2 a3 * val4 a0 a1 a2 a3) mod N256 -> Q r0 r1 r2 r3) ->
  scalar_sqr_k a0 a1 a2 a3 Q.
Proof.
  intros Ha0 Ha1 Ha2 Ha3 Q HQ. unfold scalar_sqr_k.
  apply scalar_sqr_512b_wp; try assumption.
  intros l0 l1 l2 l3 l4 l5 l6 l7 [Hr Hv].
  apply scalar_reduce_512_wp; try (clear - Hr; tauto).
  intros r0 r1 r2 r3 [Hrr Hrv]. apply HQ. split; [exact Hrr|]. rewrite Hrv, Hv. reflexivity.
Qed.
