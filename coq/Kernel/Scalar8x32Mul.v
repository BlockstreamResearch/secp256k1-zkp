(* The composition: secp256k1_scalar_mul and secp256k1_scalar_sqr of the 32-bit-limb code (Gen/scalar8x32_mul.v,
   Gen/scalar8x32_sqr.v: the generated callers, which CALL the generated mul_512 / sqr_512 / reduce_512 in continuation-passing form)
   compute the product modulo the group order, canonically, for ALL limb values.  Proved from the three component theorems in
   weakest-precondition form; nothing about the components is re-proved here. *)
From Coq Require Import ZArith Lia List Bool.
Require Import Kernel.CSem Kernel.Bind Kernel.Scalar4x64 Kernel.Scalar8x32Check Kernel.Scalar8x32Mul512 Kernel.Scalar8x32Reduce512.
Require Import Gen.scalar8x32_mul_512 Gen.scalar8x32_sqr_512 Gen.scalar8x32_reduce_512 Gen.scalar8x32_mul Gen.scalar8x32_sqr.
Local Open Scope Z_scope.

Theorem scalar8x32_mul_correct a0 a1 a2 a3 a4 a5 a6 a7 b0 b1 b2 b3 b4 b5 b6 b7 :
  0 <= a0 < 2^32 -> 0 <= a1 < 2^32 -> 0 <= a2 < 2^32 -> 0 <= a3 < 2^32 -> 0 <= a4 < 2^32 -> 0 <= a5 < 2^32 -> 0 <= a6 < 2^32 -> 0 <= a7 < 2^32 -> 0 <= b0 < 2^32 -> 0 <= b1 < 2^32 -> 0 <= b2 < 2^32 -> 0 <= b3 < 2^32 -> 0 <= b4 < 2^32 -> 0 <= b5 < 2^32 -> 0 <= b6 < 2^32 -> 0 <= b7 < 2^32 ->
  forall Q : Z -> Z -> Z -> Z -> Z -> Z -> Z -> Z -> Prop,
  (forall r0 r1 r2 r3 r4 r5 r6 r7, (0 <= r0 < 2^32 /\ 0 <= r1 < 2^32 /\ 0 <= r2 < 2^32 /\ 0 <= r3 < 2^32 /\ 0 <= r4 < 2^32 /\ 0 <= r5 < 2^32 /\ 0 <= r6 < 2^32 /\ 0 <= r7 < 2^32) /\ val8w r0 r1 r2 r3 r4 r5 r6 r7 = (val8w a0 a1 a2 a3 a4 a5 a6 a7 * val8w b0 b1 b2 b3 b4 b5 b6 b7) mod N256 -> Q r0 r1 r2 r3 r4 r5 r6 r7) ->
  scalar8x32_mul_k a0 a1 a2 a3 a4 a5 a6 a7 b0 b1 b2 b3 b4 b5 b6 b7 Q.
Proof.
  intros Ha0 Ha1 Ha2 Ha3 Ha4 Ha5 Ha6 Ha7 Hb0 Hb1 Hb2 Hb3 Hb4 Hb5 Hb6 Hb7 Q HQ. unfold scalar8x32_mul_k.
  apply scalar8x32_mul_512_wp; try assumption.
  intros l0 l1 l2 l3 l4 l5 l6 l7 l8 l9 l10 l11 l12 l13 l14 l15 [Hr Hv].
  apply scalar8x32_reduce_512_wp; try (clear - Hr; tauto).
  intros r0 r1 r2 r3 r4 r5 r6 r7 [Hrr Hrv]. apply HQ. split; [exact Hrr|]. rewrite Hrv, Hv. reflexivity.
Qed.

Theorem scalar8x32_sqr_correct a0 a1 a2 a3 a4 a5 a6 a7 :
  0 <= a0 < 2^32 -> 0 <= a1 < 2^32 -> 0 <= a2 < 2^32 -> 0 <= a3 < 2^32 -> 0 <= a4 < 2^32 -> 0 <= a5 < 2^32 -> 0 <= a6 < 2^32 -> 0 <= a7 < 2^32 ->
  forall Q : Z -> Z -> Z -> Z -> Z -> Z -> Z -> Z -> Prop,
  (forall r0 r1 r2 r3 r4 r5 r6 r7, (0 <= r0 < 2^32 /\ 0 <= r1 < 2^32 /\ 0 <= r2 < 2^32 /\ 0 <= r3 < 2^32 /\ 0 <= r4 < 2^32 /\ 0 <= r5 < 2^32 /\ 0 <= r6 < 2^32 /\ 0 <= r7 < 2^32) /\ val8w r0 r1 r2 r3 r4 r5 r6 r7 = (val8w a0 a1 a2 a3 a4 a5 a6 a7 * val8w a0 a1 a2 a3 a4 a5 a6 a7) mod N256 -> Q r0 r1 r2 r3 r4 r5 r6 r7) ->
  scalar8x32_sqr_k a0 a1 a2 a3 a4 a5 a6 a7 Q.
Proof.
  intros Ha0 Ha1 Ha2 Ha3 Ha4 Ha5 Ha6 Ha7 Q HQ. unfold scalar8x32_sqr_k.
  apply scalar8x32_sqr_512_wp; try assumption.
  intros l0 l1 l2 l3 l4 l5 l6 l7 l8 l9 l10 l11 l12 l13 l14 l15 [Hr Hv].
  apply scalar8x32_reduce_512_wp; try (clear - Hr; tauto).
  intros r0 r1 r2 r3 r4 r5 r6 r7 [Hrr Hrv]. apply HQ. split; [exact Hrr|]. rewrite Hrv, Hv. reflexivity.
Qed.
