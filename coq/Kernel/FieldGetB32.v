(* Proof ABOUT the generated field-element-to-byte-string conversion (Gen/fe_impl_get_b32.v: secp256k1_fe_impl_get_b32 of
   src/field_5x52_impl.h): for ALL limb values inside the normalized representation (four limbs below 2^52, the top one below 2^48)
   the 32 output bytes are bytes and their big-endian value is exactly the value of the limbs.  Together with
   fe_set_b32_limit_correct this is the limb-level round trip of the 32-byte field encoding. *)
From Coq Require Import ZArith Lia List Bool.
Require Import Kernel.CSem Kernel.Bits Kernel.Field5x52 Kernel.FieldSetB32 Gen.fe_impl_get_b32.
Import ListNotations.
Local Open Scope Z_scope.

(* a 48-bit value is the sum of its six bytes *)
Lemma bytes48 x : 0 <= x < 2^48 ->
  x = (x / 2^40) mod 2^8 * 2^40 + (x / 2^32) mod 2^8 * 2^32 + (x / 2^24) mod 2^8 * 2^24 + (x / 2^16) mod 2^8 * 2^16 + (x / 2^8) mod 2^8 * 2^8 + x mod 2^8.
Proof. intros. dlia. Qed.
(* a 52-bit limb whose low byte boundary is aligned: a nibble on top of six bytes *)
Lemma bytes52_low x : 0 <= x < 2^52 ->
  x = (x / 2^48) mod 2^4 * 2^48 + (x / 2^40) mod 2^8 * 2^40 + (x / 2^32) mod 2^8 * 2^32 + (x / 2^24) mod 2^8 * 2^24 + (x / 2^16) mod 2^8 * 2^16 + (x / 2^8) mod 2^8 * 2^8 + x mod 2^8.
Proof. intros. dlia. Qed.
(* a 52-bit limb that starts in the middle of a byte: six bytes on top of a nibble *)
Lemma bytes52_high x : 0 <= x < 2^52 ->
  x = (x / 2^44) mod 2^8 * 2^44 + (x / 2^36) mod 2^8 * 2^36 + (x / 2^28) mod 2^8 * 2^28 + (x / 2^20) mod 2^8 * 2^20 + (x / 2^12) mod 2^8 * 2^12 + (x / 2^4) mod 2^8 * 2^4 + x mod 2^4.
Proof. intros. dlia. Qed.

Theorem fe_get_b32_correct n0 n1 n2 n3 n4 :
  0 <= n0 < 2^52 -> 0 <= n1 < 2^52 -> 0 <= n2 < 2^52 -> 0 <= n3 < 2^52 -> 0 <= n4 < 2^48 ->
  fe_impl_get_b32_k n0 n1 n2 n3 n4 (fun r0 r1 r2 r3 r4 r5 r6 r7 r8 r9 r10 r11 r12 r13 r14 r15 r16 r17 r18 r19 r20 r21 r22 r23 r24 r25 r26 r27 r28 r29 r30 r31 =>
    Forall (fun b => 0 <= b < 256) [r0; r1; r2; r3; r4; r5; r6; r7; r8; r9; r10; r11; r12; r13; r14; r15; r16; r17; r18; r19; r20; r21; r22; r23; r24; r25; r26; r27; r28; r29; r30; r31] /\
    be32 r0 r1 r2 r3 r4 r5 r6 r7 r8 r9 r10 r11 r12 r13 r14 r15 r16 r17 r18 r19 r20 r21 r22 r23 r24 r25 r26 r27 r28 r29 r30 r31 = val5 n0 n1 n2 n3 n4).
Proof.
  intros H0 H1 H2 H3 H4. unfold fe_impl_get_b32_k. cbv zeta.
  rewrite !land255, !land15. unfold u64.
  pose proof (Z.mod_pos_bound (n0 / 2^48) (2^4) eq_refl). pose proof (Z.mod_pos_bound n1 (2^4) eq_refl).
  pose proof (Z.mod_pos_bound (n2 / 2^48) (2^4) eq_refl). pose proof (Z.mod_pos_bound n3 (2^4) eq_refl).
  rewrite (Z.mod_small (n3 mod 2^4 * 2^4) (2^64)), (Z.mod_small (n1 mod 2^4 * 2^4) (2^64)) by lia.
  rewrite (lor_add_disjoint ((n2 / 2^48) mod 2^4) (n3 mod 2^4) 4), (lor_add_disjoint ((n0 / 2^48) mod 2^4) (n1 mod 2^4) 4) by lia.
  unfold u8. rewrite !Z.mod_mod by discriminate.
  rewrite (Z.mod_small ((n2 / 2^48) mod 2^4 + n3 mod 2^4 * 2^4) (2^8)), (Z.mod_small ((n0 / 2^48) mod 2^4 + n1 mod 2^4 * 2^4) (2^8)) by lia.
  split.
  - repeat (apply Forall_cons; [first [apply Z.mod_pos_bound; reflexivity | lia]|]). apply Forall_nil.
  - pose proof (bytes48 n4 H4) as E4. pose proof (bytes52_high n3 H3) as E3. pose proof (bytes52_low n2 H2) as E2.
    pose proof (bytes52_high n1 H1) as E1. pose proof (bytes52_low n0 H0) as E0.
    unfold be32, val5.
    repeat match goal with |- context[?x mod ?m] => let b := fresh "b" in set (b := x mod m) in * end.
    clear -E0 E1 E2 E3 E4.
    repeat match goal with b := _ |- _ => clearbody b end.
    lia.
Qed.
