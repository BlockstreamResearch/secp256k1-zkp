(* Proof ABOUT the generated constant-time point addition (Gen/gej_add_ge.v: secp256k1_gej_add_ge of src/group_impl.h - the unified,
   branch-free addition of a Jacobian and an affine point used by every signing path -, translated with its 45 field operations kept as
   calls to the separately translated and proved limb functions, whole-object copies member by member, secp256k1_fe_one read from its
   initializer). *)
From Coq Require Import ZArith Lia Setoid Morphisms.
Require Import Kernel.CSem Kernel.Field5x52 Kernel.FieldWp Kernel.Cong.
Require Import Gen.fe_mul_inner Gen.fe_sqr_inner Gen.fe_impl_add Gen.fe_impl_negate_unchecked Gen.fe_impl_half Gen.fe_impl_mul_int_unchecked Gen.fe_impl_cmov Gen.fe_impl_normalizes_to_zero Gen.gej_add_ge.
Local Open Scope Z_scope.
Local Opaque fe_mul_inner_k fe_sqr_inner_k fe_impl_add_k fe_impl_negate_unchecked_k fe_impl_half_k fe_impl_mul_int_unchecked_k fe_impl_cmov_k fe_impl_normalizes_to_zero_k.

(* limbs below m * 2^52, top limb below t * 2^48 (magnitude k implies bnd (2k) (2k); the results of a multiplication satisfy bnd 1 2) *)
Definition bnd (m t a0 a1 a2 a3 a4 : Z) : Prop :=
  0 <= a0 < m * 2^52 /\ 0 <= a1 < m * 2^52 /\ 0 <= a2 < m * 2^52 /\ 0 <= a3 < m * 2^52 /\ 0 <= a4 < t * 2^48.

(* the flags of the conditional moves, once the zero test is decided *)
Ltac flag_norm := try change (b2z (1 =? 0)) with 0; try change (b2z (0 =? 0)) with 1.

Definition hidden_case (P : Prop) : Prop := P.

(* the algebra, independent of the limb representation: up to the zero test of M, and from the conditional moves on *)
Lemma add_ge_head X1 Y1 Z1 X2 Y2 ZZ U2v S2a S2v Tv Mv RR0 MaltN TT RR :
  cong ZZ (Z1 * Z1) -> cong U2v (X2 * ZZ) -> cong S2a (Y2 * ZZ) -> cong S2v (S2a * Z1) -> Tv = X1 + U2v -> Mv = Y1 + S2v ->
  cong RR0 (Tv * Tv) -> MaltN = 2 * (1 + 1) * P256 - U2v -> cong TT (X1 * MaltN) -> RR = RR0 + TT ->
  let U2 := X2 * (Z1 * Z1) in let S2 := Y2 * (Z1 * Z1) * Z1 in let T := X1 + U2 in let M := Y1 + S2 in
  cong Tv T /\ cong Mv M /\ cong RR (T * T - X1 * U2) /\ cong (MaltN + X1) (X1 - U2).
Proof.
  intros C C0 C1 C2 V V0 C3 V1 C4 V2 U2 S2 T M.
  assert (HU : cong U2v U2) by (rewrite C0, C; reflexivity).
  assert (HS : cong S2v S2) by (rewrite C2, C1, C; reflexivity).
  assert (HT : cong Tv T) by (rewrite V, HU; reflexivity).
  assert (HM : cong MaltN (- U2)) by (rewrite V1, <- HU; apply cong_sub_mult).
  split; [exact HT|]. split; [rewrite V0, HS; reflexivity|]. split.
  - rewrite V2, C3, C4, HT, HM. apply cong_of_eq. ring.
  - rewrite HM. apply cong_of_eq. ring.
Qed.

Lemma add_ge_tail Tv T RaV Ralt MaV Malt NfV NN Z1 Nn Qn Qv T1 RZ T2 T3 T4 T5 T6 RYn RY b :
  cong Tv T -> cong RaV Ralt -> cong MaV Malt -> cong NfV NN ->
  cong Nn (MaV * MaV) -> Qn = 2 * (4 + 1 + 1) * P256 - Tv -> cong Qv (Qn * Nn) -> cong T1 (RaV * RaV) -> cong RZ (Z1 * MaV) ->
  T2 = T1 + Qv -> T3 = T2 * 2 -> T4 = T3 + Qv -> cong T5 (T4 * RaV) -> T6 = T5 + NfV -> RYn = 2 * (4 + 2 + 1) * P256 - T6 -> 2 * RY = RYn + b * P256 ->
  cong RZ (Z1 * Malt) /\ cong T2 (Ralt * Ralt - T * (Malt * Malt)) /\
  cong (2 * RY) (- (Ralt * (2 * (Ralt * Ralt - T * (Malt * Malt)) - T * (Malt * Malt)) + NN)).
Proof.
  intros HT HR HM HN C5 V5 C6 C8 C9 V6 V7 V8 C10 V9 V10 V11.
  assert (HQn : cong Qn (- T)) by (rewrite V5, <- HT; apply cong_sub_mult).
  assert (HQ : cong Qv (- T * (Malt * Malt))) by (rewrite C6, C5, HQn, HM; reflexivity).
  assert (H2 : cong T2 (Ralt * Ralt - T * (Malt * Malt))) by (rewrite V6, C8, HQ, HR; apply cong_of_eq; ring).
  split; [rewrite C9, HM; reflexivity|]. split; [exact H2|].
  rewrite V11. transitivity RYn; [apply cong_add_mult|].
  rewrite V10. transitivity (- T6); [apply cong_sub_mult|].
  rewrite V9, C10, HN, V8, V7, H2, HQ, HR. apply cong_of_eq. ring.
Qed.

(* the specification of the unified addition, in terms of the values of the limb vectors *)
Definition add_ge_post (inf x0 x1 x2 x3 x4 y0 y1 y2 y3 y4 z0 z1 z2 z3 z4 bx0 bx1 bx2 bx3 bx4 by0 by1 by2 by3 by4 rinf rx0 rx1 rx2 rx3 rx4 ry0 ry1 ry2 ry3 ry4 rz0 rz1 rz2 rz3 rz4 : Z) : Prop :=

      let X1 := val5 x0 x1 x2 x3 x4 in let Y1 := val5 y0 y1 y2 y3 y4 in let Z1 := val5 z0 z1 z2 z3 z4 in
      let X2 := val5 bx0 bx1 bx2 bx3 bx4 in let Y2 := val5 by0 by1 by2 by3 by4 in
      let U2 := X2 * (Z1 * Z1) in let S2 := Y2 * (Z1 * Z1) * Z1 in let T := X1 + U2 in let M := Y1 + S2 in let R := T * T - X1 * U2 in
      let deg := (M mod P256 =? 0) in
      let Ralt := if deg then 2 * Y1 else R in let Malt := if deg then X1 - U2 else M in let NN := if deg then 0 else Malt * Malt * (Malt * Malt) in
      let X3 := Ralt * Ralt - T * (Malt * Malt) in
      (inf = 1 -> (rx0 = bx0 /\ rx1 = bx1 /\ rx2 = bx2 /\ rx3 = bx3 /\ rx4 = bx4) /\ (ry0 = by0 /\ ry1 = by1 /\ ry2 = by2 /\ ry3 = by3 /\ ry4 = by4) /\
                  (rz0 = 1 /\ rz1 = 0 /\ rz2 = 0 /\ rz3 = 0 /\ rz4 = 0) /\ rinf = 0) /\
      (inf = 0 -> (bnd 2 4 rx0 rx1 rx2 rx3 rx4 /\ bnd 8 8 ry0 ry1 ry2 ry3 ry4 /\ bnd 1 2 rz0 rz1 rz2 rz3 rz4) /\
                  cong (val5 rz0 rz1 rz2 rz3 rz4) (Z1 * Malt) /\ cong (val5 rx0 rx1 rx2 rx3 rx4) X3 /\
                  cong (2 * val5 ry0 ry1 ry2 ry3 ry4) (- (Ralt * (2 * X3 - T * (Malt * Malt)) + NN)) /\
                  rinf = (if (Z1 * Malt) mod P256 =? 0 then 1 else 0)).

(* the first operand is the point at infinity: the result is the second operand with z = 1 *)
Ltac inf1_finish :=
  cbv beta delta [add_ge_post]; intros ? ? ? ? ? ? ? ? ? ? ? ? ? ? ?;
  split; [intros _; subst; repeat split; reflexivity | let E := fresh "E" in intro E; discriminate E].

Lemma lt52_one : lt52 1 1 1 0 0 0 0.
Proof. unfold lt52. lia. Qed.

Theorem gej_add_ge_correct inf x0 x1 x2 x3 x4 y0 y1 y2 y3 y4 z0 z1 z2 z3 z4 bx0 bx1 bx2 bx3 bx4 by0 by1 by2 by3 by4 :
  (inf = 0 \/ inf = 1) ->
  bnd 8 8 x0 x1 x2 x3 x4 -> bnd 8 8 y0 y1 y2 y3 y4 -> bnd 16 16 z0 z1 z2 z3 z4 -> bnd 16 16 bx0 bx1 bx2 bx3 bx4 -> bnd 16 16 by0 by1 by2 by3 by4 ->
  gej_add_ge_k inf x0 x1 x2 x3 x4 y0 y1 y2 y3 y4 z0 z1 z2 z3 z4 bx0 bx1 bx2 bx3 bx4 by0 by1 by2 by3 by4
    (add_ge_post inf x0 x1 x2 x3 x4 y0 y1 y2 y3 y4 z0 z1 z2 z3 z4 bx0 bx1 bx2 bx3 bx4 by0 by1 by2 by3 by4).
Proof.
  change bnd with lt52. intros Hinf Hx Hy Hz Hbx Hby. pose proof lt52_one as H1.
  unfold gej_add_ge_k.
  copy_step.
  sqr_step. copy_step. mul_step. copy_step. mul_step. mul_step. copy_step. add_step. copy_step. add_step. sqr_step. negate_step. mul_step. add_step.
  ntz_step.
  match type of N with _ = (if ?c =? 0 then 1 else 0) => destruct (Z.eqb_spec c 0) as [Dg|Dg] end; subst ret; flag_norm.
  - (* degenerate: M = 0 mod p *)
    copy_step. mul_int_step. add_step. cmov0_step. cmov0_step. sqr_step. negate_step. mul_step. sqr_step. cmov1_step. sqr_step. mul_step. add_step.
    copy_step. mul_int_step. add_step. mul_step. add_step. negate_step. half_step.
    destruct Hinf as [-> | ->].
    + cmov0_step. cmov0_step. cmov0_step. ntz_step.
      cbv beta delta [add_ge_post]. intros X1 Y1 Z1 X2 Y2 U2 S2 T M R deg Ralt Malt NN X3.
      split; [intro E; discriminate E|]. intros _.
      split; [change bnd with lt52; split; [within | split; within]|].
      destruct (add_ge_head _ _ _ _ _ _ _ _ _ _ _ _ _ _ _ C C0 C1 C2 V V0 C3 V1 C4 V2) as [HT [HM [HR HMa]]].
      assert (Hdeg : deg = true) by (unfold deg; apply Z.eqb_eq; rewrite <- Dg; symmetry; exact (cong_mod _ _ HM)).
      match type of Dg with ?mv mod _ = 0 => assert (HN0 : cong mv 0) by (apply cong_of_mod; rewrite Z.sub_0_r; exact Dg) end.
      match type of V3 with ?ra = _ => assert (HRa : cong ra (2 * Y1)) by (rewrite V3; apply cong_of_eq; unfold Y1; ring) end.
      rewrite <- V4 in HMa.
      destruct (add_ge_tail _ _ _ _ _ _ _ _ _ _ _ _ _ _ _ _ _ _ _ _ _ _ HT HRa HMa HN0 C5 V5 C6 C8 C9 V6 V7 V8 C10 V9 V10 V11) as [G1 [G2 G3]].
      unfold X3, NN, Ralt, Malt; rewrite Hdeg.
      split; [exact G1|]. split; [exact G2|]. split; [exact G3|].
      rewrite N. rewrite (cong_mod _ _ G1). reflexivity.
    + cmov1_step. cmov1_step. cmov1_step. ntz_step. inf1_finish.
  - (* the generic case: M <> 0 mod p *)
    copy_step. mul_int_step. add_step. cmov1_step. cmov1_step. sqr_step. negate_step. mul_step. sqr_step. cmov0_step. sqr_step. mul_step. add_step.
    copy_step. mul_int_step. add_step. mul_step. add_step. negate_step. half_step.
    destruct Hinf as [-> | ->].
    + cmov0_step. cmov0_step. cmov0_step. ntz_step.
      cbv beta delta [add_ge_post]. intros X1 Y1 Z1 X2 Y2 U2 S2 T M R deg Ralt Malt NN X3.
      split; [intro E; discriminate E|]. intros _.
      split; [change bnd with lt52; split; [within | split; within]|].
      destruct (add_ge_head _ _ _ _ _ _ _ _ _ _ _ _ _ _ _ C C0 C1 C2 V V0 C3 V1 C4 V2) as [HT [HM [HR HMa]]].
      assert (Hdeg : deg = false) by (unfold deg; apply Z.eqb_neq; intro E; apply Dg; rewrite <- E; exact (cong_mod _ _ HM)).
      match type of C7 with cong ?n4 _ => assert (HN4 : cong n4 (M * M * (M * M))) by (rewrite C7, C5, HM; reflexivity) end.
      destruct (add_ge_tail _ _ _ _ _ _ _ _ _ _ _ _ _ _ _ _ _ _ _ _ _ _ HT HR HM HN4 C5 V5 C6 C8 C9 V6 V7 V8 C10 V9 V10 V11) as [G1 [G2 G3]].
      unfold X3, NN, Ralt, Malt; rewrite Hdeg.
      split; [exact G1|]. split; [exact G2|]. split; [exact G3|].
      rewrite N. rewrite (cong_mod _ _ G1). reflexivity.
    + cmov1_step. cmov1_step. cmov1_step. ntz_step. inf1_finish.
Qed.
