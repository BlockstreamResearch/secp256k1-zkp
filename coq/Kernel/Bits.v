(* Bitwise operations on values below 2^k, for any width k: the facts the branch-free C idioms (masks, all-ones tests,
   zero tests, OR of disjoint bit fields) rest on.  A numeral mask such as 0xFFFFFFFFFFFFF is [Z.ones 52] up to conversion, so the
   lemmas apply to the generated code with the width given explicitly. *)
From Coq Require Import ZArith Lia Bool.
Local Open Scope Z_scope.

(* linear arithmetic once every quotient and remainder in sight is named and specified by its division equations *)
Ltac dlia := Z.div_mod_to_equations; lia.

Lemma land_ones_small x k : 0 <= x < 2^k -> Z.land x (Z.ones k) = x.
Proof.
  intros H. destruct (Z.neg_nonneg_cases k).
  - rewrite Z.pow_neg_r in H; lia.
  - rewrite Z.land_ones by assumption. apply Z.mod_small, H.
Qed.

(* the masks of the generated code, spelled as the numerals that occur there *)
Lemma land1 x : Z.land x 1 = x mod 2.
Proof. exact (Z.land_ones x 1 (Pos2Z.is_nonneg _)). Qed.
Lemma land15 x : Z.land x 15 = x mod 2^4.
Proof. exact (Z.land_ones x 4 (Pos2Z.is_nonneg _)). Qed.
Lemma land255 x : Z.land x 255 = x mod 2^8.
Proof. exact (Z.land_ones x 8 (Pos2Z.is_nonneg _)). Qed.
Lemma land22 x : Z.land x 4194303 = x mod 2^22.
Proof. exact (Z.land_ones x 22 (Pos2Z.is_nonneg _)). Qed.
Lemma land26 x : Z.land x 67108863 = x mod 2^26.
Proof. exact (Z.land_ones x 26 (Pos2Z.is_nonneg _)). Qed.
Lemma land48 x : Z.land x 281474976710655 = x mod 2^48.
Proof. exact (Z.land_ones x 48 (Pos2Z.is_nonneg _)). Qed.
Lemma land52 x : Z.land x 4503599627370495 = x mod 2^52.
Proof. exact (Z.land_ones x 52 (Pos2Z.is_nonneg _)). Qed.

Lemma small_land_ones x k : 0 <= k -> Z.land x (Z.ones k) = x -> 0 <= x < 2^k.
Proof. intros Hk E. rewrite <- E, Z.land_ones by assumption. apply Z.mod_pos_bound, Z.pow_pos_nonneg; lia. Qed.

Lemma land_range a b k : 0 <= a < 2^k -> 0 <= b < 2^k -> 0 <= Z.land a b < 2^k.
Proof.
  intros Ha Hb. destruct (Z.neg_nonneg_cases k); [rewrite Z.pow_neg_r in Ha; lia|].
  apply small_land_ones; [assumption|]. rewrite <- Z.land_assoc, (land_ones_small b) by assumption. reflexivity.
Qed.

Lemma lxor_range a b k : 0 <= a < 2^k -> 0 <= b < 2^k -> 0 <= Z.lxor a b < 2^k.
Proof.
  intros Ha Hb. destruct (Z.neg_nonneg_cases k); [rewrite Z.pow_neg_r in Ha; lia|].
  apply small_land_ones; [assumption|]. apply Z.bits_inj'; intros n _. rewrite Z.land_spec, Z.lxor_spec.
  rewrite <- (land_ones_small a k Ha), <- (land_ones_small b k Hb), !Z.land_spec.
  destruct (Z.testbit a n), (Z.testbit b n), (Z.testbit (Z.ones k) n); reflexivity.
Qed.

(* a /\ b is all ones only if a is: a = a /\ ones = a /\ (a /\ b) = a /\ b *)
Lemma land_eq_ones a b k : 0 <= a < 2^k -> 0 <= b < 2^k -> (Z.land a b = Z.ones k <-> a = Z.ones k /\ b = Z.ones k).
Proof.
  intros Ha Hb. split; [|intros [-> ->]; apply Z.land_diag].
  intros E. pose proof (land_ones_small a k Ha) as Ea. pose proof (land_ones_small b k Hb) as Eb.
  rewrite <- E in Ea, Eb. rewrite Z.land_assoc, Z.land_diag in Ea. rewrite (Z.land_comm a), Z.land_assoc, Z.land_diag, Z.land_comm in Eb.
  rewrite <- E. split; symmetry; assumption.
Qed.

Lemma lxor_eq_iff x c m : Z.lxor x c = m <-> x = Z.lxor m c.
Proof. split; intros E; [rewrite <- E | rewrite E]; rewrite Z.lxor_assoc, Z.lxor_nilpotent, Z.lxor_0_r; reflexivity. Qed.

Lemma lor_eq0b a b : (Z.lor a b =? 0) = (a =? 0) && (b =? 0).
Proof.
  destruct (Z.eqb_spec (Z.lor a b) 0) as [E|E].
  - apply Z.lor_eq_0_iff in E as [-> ->]. reflexivity.
  - destruct (Z.eqb_spec a 0) as [->|]; [|reflexivity]. destruct (Z.eqb_spec b 0) as [->|]; [|reflexivity]. elim E. reflexivity.
Qed.

Lemma lxor_eq0b x y : (Z.lxor x y =? 0) = (x =? y).
Proof.
  destruct (Z.eqb_spec x y) as [->|N]; [rewrite Z.lxor_nilpotent; reflexivity|].
  apply Z.eqb_neq. intro E. apply N, Z.lxor_eq, E.
Qed.

(* OR of a low part and a shifted high part with no common bits is their sum *)
Lemma lor_add_disjoint a b k : 0 <= k -> 0 <= a < 2^k -> 0 <= b -> Z.lor a (b * 2^k) = a + b * 2^k.
Proof.
  intros Hk Ha Hb. rewrite <- Z.shiftl_mul_pow2 by assumption.
  assert (Hl : Z.land a (Z.shiftl b k) = 0).
  { rewrite <- (land_ones_small a k Ha), <- Z.land_assoc, (Z.land_comm (Z.ones k)), Z.land_ones by assumption.
    rewrite Z.shiftl_mul_pow2, Z.mod_mul by lia. apply Z.land_0_r. }
  rewrite <- Z.lxor_lor by exact Hl. symmetry. apply Z.add_nocarry_lxor, Hl.
Qed.

(* a digit below 2^k and the rest are determined by their sum *)
Lemma radix_inj k a b a' b' : 0 <= a < 2^k -> 0 <= a' < 2^k -> a + b * 2^k = a' + b' * 2^k -> a = a' /\ b = b'.
Proof.
  intros Ha Ha' E. assert (P : 2^k <> 0) by lia. pose proof (f_equal (fun z => z / 2^k) E) as D. cbv beta in D.
  rewrite !Z.div_add, !Z.div_small in D by assumption. cbn in D. subst b'. lia.
Qed.

(* a shift right by one across limbs in words of W values: the low bit of the next limb v comes in at bit j *)
Lemma shr1_limb W j u v : 0 <= j -> 0 <= u -> u / 2 + 2^j < W ->
  (u / 2^1 + (Z.land v 1 * 2^j) mod W) mod W = u / 2 + v mod 2 * 2^j.
Proof.
  intros Hj Hu Hw. rewrite land1. change (2^1) with 2.
  pose proof (Z.pow_pos_nonneg 2 j eq_refl Hj). pose proof (Z.div_pos u 2 Hu eq_refl). pose proof (Z.mod_pos_bound v 2 eq_refl).
  assert (0 <= v mod 2 * 2^j <= 2^j) by nia. rewrite (Z.mod_small (v mod 2 * 2^j)), Z.mod_small; lia.
Qed.

(* the masked selection of the cmov family: one of the two masks is all ones, the other 0 *)
Lemma select_ones x y k : 0 <= x < 2^k -> Z.lor (Z.land x (Z.ones k)) (Z.land y 0) = x /\ Z.lor (Z.land y 0) (Z.land x (Z.ones k)) = x.
Proof. intros H. rewrite Z.land_0_r, Z.lor_0_r, Z.lor_0_l, land_ones_small by assumption. auto. Qed.
