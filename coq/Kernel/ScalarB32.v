(* Proofs ABOUT the generated 32-byte scalar conversions (Gen/scalar_set_b32.v: secp256k1_scalar_set_b32 of src/scalar_4x64_impl.h with
   secp256k1_read_be64 and the final secp256k1_scalar_reduce translated in place; Gen/scalar_get_b32.v with secp256k1_write_be64 in place):
   for ALL 32-byte strings the four limbs hold the big-endian value reduced modulo the group order and the overflow flag says exactly
   whether the value was at least the order; for ALL limb values the 32 bytes written are the big-endian value of the limbs. *)
From Coq Require Import ZArith Lia List Bool.
Require Import Kernel.CSem Kernel.Bind Kernel.Carry64 Kernel.Scalar4x64 Kernel.CtPrimitives Kernel.ScalarAdd Kernel.MorePrims Kernel.FieldSetB32.
Require Import Gen.scalar_check_overflow Gen.scalar_set_b32 Gen.scalar_get_b32.
Import ListNotations.
Local Open Scope Z_scope.
Local Opaque bind.
Ltac Zify.zify_post_hook ::= Z.div_mod_to_equations.

(* an OR of a multiple of 2^k with a value below 2^k is their sum *)
Lemma lor_hi_lo hi lo k : 0 <= k -> 0 <= hi -> hi mod 2^k = 0 -> 0 <= lo < 2^k -> Z.lor hi lo = hi + lo.
Proof.
  intros Hk Hh Hm Hl. assert (P : 0 < 2^k) by (apply Z.pow_pos_nonneg; lia).
  assert (E : hi = hi / 2^k * 2^k) by (rewrite (Z.div_mod hi (2^k)) at 1 by lia; lia).
  rewrite E at 1. rewrite Z.lor_comm, lor_add_disjoint; [lia|lia|lia|apply Z.div_pos; lia].
Qed.

(* a 64-bit word is the sum of its eight bytes *)
Lemma bytes64 x : 0 <= x < 2^64 ->
  x = (x / 2^56) mod 2^8 * 2^56 + (x / 2^48) mod 2^8 * 2^48 + (x / 2^40) mod 2^8 * 2^40 + (x / 2^32) mod 2^8 * 2^32 + (x / 2^24) mod 2^8 * 2^24 + (x / 2^16) mod 2^8 * 2^16 + (x / 2^8) mod 2^8 * 2^8 + x mod 2^8.
Proof. intros. lia. Qed.

Theorem scalar_get_b32_correct d0 d1 d2 d3 :
  0 <= d0 < 2^64 -> 0 <= d1 < 2^64 -> 0 <= d2 < 2^64 -> 0 <= d3 < 2^64 ->
  scalar_get_b32_k d0 d1 d2 d3 (fun r0 r1 r2 r3 r4 r5 r6 r7 r8 r9 r10 r11 r12 r13 r14 r15 r16 r17 r18 r19 r20 r21 r22 r23 r24 r25 r26 r27 r28 r29 r30 r31 =>
    Forall (fun b => 0 <= b < 256) [r0; r1; r2; r3; r4; r5; r6; r7; r8; r9; r10; r11; r12; r13; r14; r15; r16; r17; r18; r19; r20; r21; r22; r23; r24; r25; r26; r27; r28; r29; r30; r31] /\
    be32 r0 r1 r2 r3 r4 r5 r6 r7 r8 r9 r10 r11 r12 r13 r14 r15 r16 r17 r18 r19 r20 r21 r22 r23 r24 r25 r26 r27 r28 r29 r30 r31 = val4 d0 d1 d2 d3).
Proof.
  intros H0 H1 H2 H3. unfold scalar_get_b32_k. cbv zeta. unfold u8.
  split.
  - repeat constructor; lia.
  - pose proof (bytes64 d0 H0) as E0. pose proof (bytes64 d1 H1) as E1. pose proof (bytes64 d2 H2) as E2. pose proof (bytes64 d3 H3) as E3.
    unfold be32, val4.
    repeat match goal with |- context[?x mod ?m] => let b := fresh "b" in set (b := x mod m) in * end.
    clear -E0 E1 E2 E3.
    repeat match goal with b := _ |- _ => clearbody b end.
    lia.
Qed.

(* ---- parsing ---- *)
Ltac lor_bytes :=
  repeat match goal with |- context[Z.lor ?a ?b] =>
    lazymatch a with context[Z.lor _ _] => fail | _ =>
      lazymatch b with
      | _ * 2^?j => let k := eval compute in (j + 8) in rewrite (lor_hi_lo a b k) by lia
      | _ => rewrite (lor_hi_lo a b 8) by lia
      end end end.

Theorem scalar_set_b32_correct a0 a1 a2 a3 a4 a5 a6 a7 a8 a9 a10 a11 a12 a13 a14 a15 a16 a17 a18 a19 a20 a21 a22 a23 a24 a25 a26 a27 a28 a29 a30 a31 :
  0 <= a0 < 256 -> 0 <= a1 < 256 -> 0 <= a2 < 256 -> 0 <= a3 < 256 -> 0 <= a4 < 256 -> 0 <= a5 < 256 -> 0 <= a6 < 256 -> 0 <= a7 < 256 -> 0 <= a8 < 256 -> 0 <= a9 < 256 -> 0 <= a10 < 256 -> 0 <= a11 < 256 -> 0 <= a12 < 256 -> 0 <= a13 < 256 -> 0 <= a14 < 256 -> 0 <= a15 < 256 -> 0 <= a16 < 256 -> 0 <= a17 < 256 -> 0 <= a18 < 256 -> 0 <= a19 < 256 -> 0 <= a20 < 256 -> 0 <= a21 < 256 -> 0 <= a22 < 256 -> 0 <= a23 < 256 -> 0 <= a24 < 256 -> 0 <= a25 < 256 -> 0 <= a26 < 256 -> 0 <= a27 < 256 -> 0 <= a28 < 256 -> 0 <= a29 < 256 -> 0 <= a30 < 256 -> 0 <= a31 < 256 ->
  scalar_set_b32_k a0 a1 a2 a3 a4 a5 a6 a7 a8 a9 a10 a11 a12 a13 a14 a15 a16 a17 a18 a19 a20 a21 a22 a23 a24 a25 a26 a27 a28 a29 a30 a31 (fun r0 r1 r2 r3 over =>
    (0 <= r0 < 2^64 /\ 0 <= r1 < 2^64 /\ 0 <= r2 < 2^64 /\ 0 <= r3 < 2^64) /\
    val4 r0 r1 r2 r3 = be32 a0 a1 a2 a3 a4 a5 a6 a7 a8 a9 a10 a11 a12 a13 a14 a15 a16 a17 a18 a19 a20 a21 a22 a23 a24 a25 a26 a27 a28 a29 a30 a31 mod N256 /\
    over = (if N256 <=? be32 a0 a1 a2 a3 a4 a5 a6 a7 a8 a9 a10 a11 a12 a13 a14 a15 a16 a17 a18 a19 a20 a21 a22 a23 a24 a25 a26 a27 a28 a29 a30 a31 then 1 else 0)).
Proof.
  intros H0 H1 H2 H3 H4 H5 H6 H7 H8 H9 H10 H11 H12 H13 H14 H15 H16 H17 H18 H19 H20 H21 H22 H23 H24 H25 H26 H27 H28 H29 H30 H31.
  unfold scalar_set_b32_k.
  unfold u64 at 1 2 3 4 5 6 7 8 9 10 11 12 13 14 15 16 17 18 19 20 21 22 23 24 25 26 27 28.
  repeat match goal with |- context[(?x * 2^?j) mod 2^64] => rewrite (Z.mod_small (x * 2^j) (2^64)) by lia end.
  lor_bytes.
  do 8 bintro.
  assert (V : val4 r_d0 r_d1 r_d2 r_d3 = be32 a0 a1 a2 a3 a4 a5 a6 a7 a8 a9 a10 a11 a12 a13 a14 a15 a16 a17 a18 a19 a20 a21 a22 a23 a24 a25 a26 a27 a28 a29 a30 a31)
    by (unfold val4, be32; lia).
  rewrite <- V.
  assert (R0 : 0 <= r_d0 < 2^64) by lia. assert (R1 : 0 <= r_d1 < 2^64) by lia. assert (R2 : 0 <= r_d2 < 2^64) by lia. assert (R3 : 0 <= r_d3 < 2^64) by lia.
  clear - R0 R1 R2 R3.
  flag_step (wrap_wp (2^32)) scalar_check_overflow_flag (N256 <=? val4 r_d0 r_d1 r_d2 r_d3).
  copy. wide (2^128). split64. do 2 (do 2 wide (2^128); split64). wide (2^128). trunc64.
  eapply sN32_wp; [reflexivity | lia |]. do 2 apply copy_wp.
  assert (A2 : val4 r_d4 r_d5 r_d6 r_d7 + ctop * 2^256 = val4 r_d0 r_d1 r_d2 r_d3 + flag * (2^256 - N256))
    by (unfold N256, val4; reveal; lia).
  split; [limbs_ok|].
  rewrite <- (Z.add_0_r (val4 r_d0 r_d1 r_d2 r_d3)).
  pose proof (val4_range r_d0 r_d1 r_d2 r_d3 R0 R1 R2 R3) as BR.
  apply (reduce_once _ 0 _ _ ctop A2 eq_refl BR); try (apply val4_range; assumption); unfold N256; lia.
Qed.
