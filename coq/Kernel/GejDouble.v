(* Proof ABOUT the generated point doubling (Gen/gej_double.v: secp256k1_gej_double of src/group_impl.h, translated with its field
   operations kept as calls to the separately translated and separately proved limb functions).  For ALL Jacobian inputs within the
   domain of the field multiplication (limbs below 2^55, top limb below 2^52: any magnitude up to 4, which is the contract of the
   group code) no limb operation leaves its proved domain, the result limbs are below 3 / 6 / 1 full limbs (magnitude 3 for y), and the result is the doubling formula of the curve y^2 = x^3 + 7 modulo p:
   Z3 = Y Z,  4 X3 = 9 X^4 - 8 X Y^2,  8 Y3 = -27 X^6 + 36 X^3 Y^2 - 8 Y^4. *)
From Coq Require Import ZArith Lia List Bool Setoid Morphisms.
Require Import Kernel.Bind Kernel.Field5x52 Kernel.FieldWp Kernel.Cong.
Require Import Gen.fe_mul_inner Gen.fe_sqr_inner Gen.fe_impl_add Gen.fe_impl_negate_unchecked Gen.fe_impl_half Gen.fe_impl_mul_int_unchecked Gen.gej_double.
Import ListNotations.
Local Open Scope Z_scope.

Local Opaque fe_mul_inner_k fe_sqr_inner_k fe_impl_add_k fe_impl_negate_unchecked_k fe_impl_half_k fe_impl_mul_int_unchecked_k.
Definition M52 := 4503599627370495.
Definition M48 := 281474976710655.
(* limbs of a field element of magnitude at most m *)
Definition mag (m a0 a1 a2 a3 a4 : Z) : Prop :=
  0 <= a0 <= 2 * m * M52 /\ 0 <= a1 <= 2 * m * M52 /\ 0 <= a2 <= 2 * m * M52 /\ 0 <= a3 <= 2 * m * M52 /\ 0 <= a4 <= 2 * m * M48.

(* limbs below m full limbs (the form in which the multiplication theorems bound their results; magnitude m implies lim (2m)) *)
Definition lim (m a0 a1 a2 a3 a4 : Z) : Prop :=
  0 <= a0 < m * 2^52 /\ 0 <= a1 < m * 2^52 /\ 0 <= a2 < m * 2^52 /\ 0 <= a3 < m * 2^52 /\ 0 <= a4 < m * 2^49.
Lemma mag4_lim8 a0 a1 a2 a3 a4 : mag 4 a0 a1 a2 a3 a4 -> lim 8 a0 a1 a2 a3 a4.
Proof. unfold mag, lim, M52, M48. intros [H0 [H1 [H2 [H3 H4]]]]. repeat split; lia. Qed.

Lemma lim_lt52 m a0 a1 a2 a3 a4 : lim m a0 a1 a2 a3 a4 -> lt52 m (2 * m) a0 a1 a2 a3 a4.
Proof. unfold lim, lt52. lia. Qed.
Lemma lt52_lim m t a0 a1 a2 a3 a4 : lt52 m t a0 a1 a2 a3 a4 -> t <= 2 * m -> lim m a0 a1 a2 a3 a4.
Proof. unfold lim, lt52. lia. Qed.

Theorem gej_double_correct inf x0 x1 x2 x3 x4 y0 y1 y2 y3 y4 z0 z1 z2 z3 z4 :
  lim 8 x0 x1 x2 x3 x4 -> lim 8 y0 y1 y2 y3 y4 -> lim 8 z0 z1 z2 z3 z4 ->
  gej_double_k inf x0 x1 x2 x3 x4 y0 y1 y2 y3 y4 z0 z1 z2 z3 z4
    (fun rinf rx0 rx1 rx2 rx3 rx4 ry0 ry1 ry2 ry3 ry4 rz0 rz1 rz2 rz3 rz4 =>
      let X := val5 x0 x1 x2 x3 x4 in let Y := val5 y0 y1 y2 y3 y4 in let Z := val5 z0 z1 z2 z3 z4 in
      rinf = inf /\
      (lim 3 rx0 rx1 rx2 rx3 rx4 /\ mag 3 ry0 ry1 ry2 ry3 ry4 /\ lim 1 rz0 rz1 rz2 rz3 rz4) /\
      cong (val5 rz0 rz1 rz2 rz3 rz4) (Y * Z) /\
      cong (4 * val5 rx0 rx1 rx2 rx3 rx4) (9 * (X * X * X * X) - 8 * (X * (Y * Y))) /\
      cong (8 * val5 ry0 ry1 ry2 ry3 ry4) (- 27 * (X * X * X * X * X * X) + 36 * (X * X * X * (Y * Y)) - 8 * (Y * Y * Y * Y))).
Proof.
  intros Hx Hy Hz. apply lim_lt52 in Hx, Hy, Hz.
  unfold gej_double_k.
  apply bind_intro; intros rinf Hinf.
  mul_step. sqr_step. sqr_step. mul_int_step. half_step. negate_step. mul_step. sqr_step. add_step. add_step. sqr_step. add_step. mul_step. add_step.
  (* the last negation: the limbs of the result are at most those of 6p, which is magnitude 3 *)
  eapply negate52_wp; [eassumption | cmp | cmp | cmp | intros ? ? ? ? ? B45 Sh V6].
  split; [exact Hinf|]. split.
  { split; [eapply lt52_lim; [eassumption | cmp]|]. split; [|eapply lt52_lim; [eassumption | cmp]].
    clear - B45 Sh. unfold lt52 in B45. unfold mag, M52, M48. lia. }
  exact (double_formula _ _ _ _ _ _ _ _ _ _ _ _ _ _ _ _ _ _ _ C C0 C1 V V0 V1 C2 C3 V2 V3 C4 V4 C5 V5 V6).
Qed.
