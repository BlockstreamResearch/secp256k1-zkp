(* Proofs ABOUT further regenerated primitives: fe_impl_mul_int_unchecked, fe_impl_to_storage / from_storage (a value-preserving
   re-packing between 5x52 and 4x64 limbs), scalar_cond_negate. *)
From Coq Require Import ZArith Lia List Bool.
Require Import Kernel.CSem Kernel.Field5x52 Kernel.Scalar4x64 Kernel.CtPrimitives Kernel.FieldPrims.
Require Import Gen.fe_impl_mul_int_unchecked Gen.fe_impl_to_storage Gen.fe_impl_from_storage Gen.scalar_cond_negate.
Import ListNotations.
Local Open Scope Z_scope.

Theorem fe_mul_int_correct r0 r1 r2 r3 r4 a :
  0 <= a < 2^64 -> 0 <= r0 -> 0 <= r1 -> 0 <= r2 -> 0 <= r3 -> 0 <= r4 ->
  r0 * a < 2^64 -> r1 * a < 2^64 -> r2 * a < 2^64 -> r3 * a < 2^64 -> r4 * a < 2^64 ->
  fe_impl_mul_int_unchecked_k r0 r1 r2 r3 r4 a (fun s0 s1 s2 s3 s4 =>
    s0 = r0 * a /\ s1 = r1 * a /\ s2 = r2 * a /\ s3 = r3 * a /\ s4 = r4 * a /\ val5 s0 s1 s2 s3 s4 = val5 r0 r1 r2 r3 r4 * a).
Proof.
  intros. unfold fe_impl_mul_int_unchecked_k, u64. cbv zeta. rewrite (Z.mod_small a) by lia.
  rewrite !Z.mod_small by (split; [apply Z.mul_nonneg_nonneg; lia | assumption]). unfold val5. repeat split; ring.
Qed.

(* a normalised field element re-packed into four 64-bit words has the same value *)
Theorem fe_to_storage_correct a0 a1 a2 a3 a4 :
  0 <= a0 < 2^52 -> 0 <= a1 < 2^52 -> 0 <= a2 < 2^52 -> 0 <= a3 < 2^52 -> 0 <= a4 < 2^48 ->
  fe_impl_to_storage_k a0 a1 a2 a3 a4 (fun s0 s1 s2 s3 =>
    (0 <= s0 < 2^64 /\ 0 <= s1 < 2^64 /\ 0 <= s2 < 2^64 /\ 0 <= s3 < 2^64) /\ val4 s0 s1 s2 s3 = val5 a0 a1 a2 a3 a4).
Proof.
  intros H0 H1 H2 H3 H4. unfold fe_impl_to_storage_k. cbv zeta.
  assert (E1 : u64 (a1 * 2^52) = (a1 mod 2^12) * 2^52) by (unfold u64; dlia).
  assert (E2 : u64 (a2 * 2^40) = (a2 mod 2^24) * 2^40) by (unfold u64; dlia).
  assert (E3 : u64 (a3 * 2^28) = (a3 mod 2^36) * 2^28) by (unfold u64; dlia).
  assert (E4 : u64 (a4 * 2^16) = a4 * 2^16) by (unfold u64; dlia).
  rewrite E1, E2, E3, E4. rewrite !lor_add_disjoint by dlia. unfold val4, val5. dlia.
Qed.

Theorem fe_from_storage_correct s0 s1 s2 s3 :
  0 <= s0 < 2^64 -> 0 <= s1 < 2^64 -> 0 <= s2 < 2^64 -> 0 <= s3 < 2^64 ->
  fe_impl_from_storage_k s0 s1 s2 s3 (fun a0 a1 a2 a3 a4 =>
    (0 <= a0 < 2^52 /\ 0 <= a1 < 2^52 /\ 0 <= a2 < 2^52 /\ 0 <= a3 < 2^52 /\ 0 <= a4 < 2^48) /\ val5 a0 a1 a2 a3 a4 = val4 s0 s1 s2 s3).
Proof.
  intros H0 H1 H2 H3. unfold fe_impl_from_storage_k. cbv zeta.
  rewrite !land52.
  assert (E1 : u64 (s1 * 2^12) mod 2^52 = (s1 mod 2^40) * 2^12) by (unfold u64; dlia).
  assert (E2 : u64 (s2 * 2^24) mod 2^52 = (s2 mod 2^28) * 2^24) by (unfold u64; dlia).
  assert (E3 : u64 (s3 * 2^36) mod 2^52 = (s3 mod 2^16) * 2^36) by (unfold u64; dlia).
  rewrite E1, E2, E3. rewrite !lor_add_disjoint by dlia. unfold val4, val5. dlia.
Qed.

Lemma lxor_all64 x : 0 <= x < 2^64 -> Z.lxor x 18446744073709551615 = 18446744073709551615 - x.
Proof.
  intros H. change 18446744073709551615 with (Z.ones 64).
  assert (Hl : Z.log2 x < 64) by (destruct (Z.eq_dec x 0) as [->|]; [simpl; lia|apply Z.log2_lt_pow2; lia]).
  rewrite <- (Z.ldiff_ones_l_low x 64) by lia. symmetry. apply Z.sub_nocarry_ldiff. apply Z.ldiff_ones_r_low; lia.
Qed.

(* conditional negation of a reduced scalar: identity for flag 0, (n - a) mod n for flag 1; returns 1 / -1 *)
Theorem scalar_cond_negate_correct a0 a1 a2 a3 flag :
  0 <= a0 < 2^64 -> 0 <= a1 < 2^64 -> 0 <= a2 < 2^64 -> 0 <= a3 < 2^64 -> val4 a0 a1 a2 a3 < N256 -> flag = 0 \/ flag = 1 ->
  scalar_cond_negate_k a0 a1 a2 a3 flag (fun r0 r1 r2 r3 ret =>
    (0 <= r0 < 2^64 /\ 0 <= r1 < 2^64 /\ 0 <= r2 < 2^64 /\ 0 <= r3 < 2^64) /\
    val4 r0 r1 r2 r3 = (if flag =? 0 then val4 a0 a1 a2 a3 else (N256 - val4 a0 a1 a2 a3) mod N256) /\
    ret = (if flag =? 0 then 1 else -1)).
Proof.
  intros H0 H1 H2 H3 Hv Hf. unfold scalar_cond_negate_k. cbv zeta.
  rewrite (scalar_is_zero_correct a0 a1 a2 a3) by tauto.
  change (u64 (13822214165235122497 + 1)) with 13822214165235122498.
  (* the mask on "a is non-zero" as scalar_negate has it *)
  replace (u64 (b2z (negb ((if (a0 =? 0) && (a1 =? 0) && (a2 =? 0) && (a3 =? 0) then 1 else 0) =? 0)) - 1))
    with (if (a0 =? 0) && (a1 =? 0) && (a2 =? 0) && (a3 =? 0) then 0 else 18446744073709551615) by (destruct (_ && _); reflexivity).
  destruct Hf as [-> | ->].
  - (* flag 0: the mask is 0, a is added to 0 *)
    change (u64 (- 0)) with 0. rewrite !Z.lxor_0_r, !Z.land_0_r.
    destruct (add4_words a0 a1 a2 a3 0 0 0 0) as (t0 & t1 & t2 & t3 & E0 & E1 & E2 & E3 & V); try assumption; try (split; discriminate || reflexivity).
    rewrite E0, E1, E2, E3. assert (P : 0 < 2^64) by reflexivity. split; [|split; [|reflexivity]].
    + destruct (_ && _); rewrite ?Z.land_0_r, ?land_all64 by (apply Z.mod_pos_bound, P);
        repeat split; discriminate || reflexivity || apply Z.mod_pos_bound, P.
    + cbn [Z.eqb]. destruct ((a0 =? 0) && (a1 =? 0) && (a2 =? 0) && (a3 =? 0)) eqn:Ez.
      * rewrite !andb_true_iff, !Z.eqb_eq in Ez. destruct Ez as [[[-> ->] ->] ->]. rewrite !Z.land_0_r. reflexivity.
      * rewrite !land_all64, V by (apply Z.mod_pos_bound, P). clear - H0 H1 H2 H3. unfold val4. dlia.
  - (* flag 1: the mask is all ones, this is scalar_negate *)
    change (u64 (- (1))) with 18446744073709551615. rewrite !lxor_all64, !land_all64 by (assumption || (split; discriminate || reflexivity)).
    destruct (negate_words a0 a1 a2 a3 H0 H1 H2 H3 Hv) as (t0 & t1 & t2 & t3 & E0 & E1 & E2 & E3 & R).
    rewrite E0, E1, E2, E3. destruct (R _ eq_refl) as [B V]. auto.
Qed.
