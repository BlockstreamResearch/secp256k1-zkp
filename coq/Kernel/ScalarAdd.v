(* Proofs ABOUT the generated scalar addition and halving (Gen/scalar_add.v with the final secp256k1_scalar_reduce
   translated in place, Gen/scalar_half.v): for ALL reduced operands the result is the canonical sum / half modulo n. *)
From Coq Require Import ZArith Lia List Bool.
Require Import Kernel.CSem Kernel.Bind Kernel.Carry64 Kernel.Scalar4x64 Kernel.CtPrimitives Gen.scalar_check_overflow Gen.scalar_add Gen.scalar_half.
Import ListNotations.
Local Open Scope Z_scope.
Ltac Zify.zify_post_hook ::= Z.div_mod_to_equations.

Lemma sN32_small v : 0 <= v < 2^31 -> sN 32 v = v.
Proof. intros H. unfold sN. cbv zeta. rewrite Z.mod_small by lia. destruct (Z.ltb_spec v (2^(32-1))); [reflexivity|]. change (2^(32-1)) with (2^31) in *. lia. Qed.

Lemma sN32_wp (K : Z -> Prop) E e : E = e -> 0 <= e < 2^31 -> K e -> bind (sN 32 E) K.
Proof. intros -> He HK. unfold bind. rewrite sN32_small by exact He. exact HK. Qed.
Local Opaque bind.

Theorem scalar_add_correct a0 a1 a2 a3 b0 b1 b2 b3 :
  0 <= a0 < 2^64 -> 0 <= a1 < 2^64 -> 0 <= a2 < 2^64 -> 0 <= a3 < 2^64 ->
  0 <= b0 < 2^64 -> 0 <= b1 < 2^64 -> 0 <= b2 < 2^64 -> 0 <= b3 < 2^64 ->
  val4 a0 a1 a2 a3 < N256 -> val4 b0 b1 b2 b3 < N256 ->
  scalar_add_k a0 a1 a2 a3 b0 b1 b2 b3 (fun r0 r1 r2 r3 ret =>
    (0 <= r0 < 2^64 /\ 0 <= r1 < 2^64 /\ 0 <= r2 < 2^64 /\ 0 <= r3 < 2^64) /\
    val4 r0 r1 r2 r3 = (val4 a0 a1 a2 a3 + val4 b0 b1 b2 b3) mod N256 /\
    ret = (if N256 <=? val4 a0 a1 a2 a3 + val4 b0 b1 b2 b3 then 1 else 0)).
Proof.
  intros Ha0 Ha1 Ha2 Ha3 Hb0 Hb1 Hb2 Hb3 Ha Hb.
  unfold scalar_add_k.
  copy. wide (2^128). split64. do 3 (do 2 wide (2^128); split64).
  assert (A1 : val4 r_d0 r_d1 r_d2 r_d3 + t2 * 2^256 = val4 a0 a1 a2 a3 + val4 b0 b1 b2 b3) by (unfold val4; reveal; lia).
  assert (BR : 0 <= val4 r_d0 r_d1 r_d2 r_d3 < 2^256) by (apply val4_range; assumption).
  assert (A3 : t2 <= 1) by (clear - A1 BR Ha Hb; unfold N256 in *; lia).
  forget_sums.
  (* overflow = carry out of 256 bits + "result >= n" *)
  flag_step sN32_wp scalar_check_overflow_flag (N256 <=? val4 r_d0 r_d1 r_d2 r_d3).
  wide (2^32).
  copy. wide (2^128). split64. do 2 (do 2 wide (2^128); split64). wide (2^128). trunc64.
  apply bind_intro; intros ? _. apply copy_wp.
  assert (A2 : val4 r_d4 r_d5 r_d6 r_d7 + ctop * 2^256 = val4 r_d0 r_d1 r_d2 r_d3 + (t2 + flag) * (2^256 - N256))
    by (unfold N256, val4; reveal; lia).
  assert (BR' : 0 <= val4 r_d4 r_d5 r_d6 r_d7 < 2^256) by (apply val4_range; assumption).
  split; [limbs_ok|]. rewrite <- A1.
  apply (reduce_once _ _ _ _ ctop A2 eq_refl BR BR'); unfold N256 in *; lia.
Qed.

(* ---- halving ---- *)
Lemma lor_shift63 a t : 0 <= a -> 0 <= t < 2^63 -> Z.lor t (a * 2^63) = a * 2^63 + t.
Proof.
  intros Ha Ht. rewrite Z.lor_comm. rewrite <- Z.shiftl_mul_pow2 by lia.
  assert (Hl : Z.land (Z.shiftl a 63) t = 0).
  { apply Z.bits_inj'; intros k Hk; rewrite Z.land_spec, Z.bits_0.
    destruct (Z.ltb_spec k 63).
    - rewrite Z.shiftl_spec_low by lia. reflexivity.
    - rewrite <- (Z.mod_small t (2^63)) by lia.
      rewrite Z.mod_pow2_bits_high by lia. apply Bool.andb_false_r. }
  rewrite <- Z.lxor_lor by exact Hl. symmetry. apply Z.add_nocarry_lxor. exact Hl.
Qed.
Lemma half_word x y : 0 <= x < 2^64 -> 0 <= y < 2^64 -> Z.lor (x / 2^1) (u64 (y * 2^63)) = x / 2 + (y mod 2) * 2^63.
Proof.
  intros Hx Hy. assert (E : u64 (y * 2^63) = (y mod 2) * 2^63) by (unfold u64; lia).
  rewrite E. change (2^1) with 2. rewrite lor_shift63 by lia. lia.
Qed.
Lemma land_bitmask K b : 0 <= K < 2^64 -> b = 0 \/ b = 1 -> Z.land K (u64 (- b)) = b * K.
Proof. intros HK [-> | ->]; unfold u64. - change (- 0) with 0. rewrite Z.mod_0_l by lia. rewrite Z.land_0_r. lia.
  - change ((- (1)) mod 2^64) with 18446744073709551615. rewrite land_all64 by lia. lia. Qed.

Theorem scalar_half_correct a0 a1 a2 a3 :
  0 <= a0 < 2^64 -> 0 <= a1 < 2^64 -> 0 <= a2 < 2^64 -> 0 <= a3 < 2^64 -> val4 a0 a1 a2 a3 < N256 ->
  scalar_half_k a0 a1 a2 a3 (fun r0 r1 r2 r3 =>
    (0 <= r0 < 2^64 /\ 0 <= r1 < 2^64 /\ 0 <= r2 < 2^64 /\ 0 <= r3 < 2^64) /\
    2 * val4 r0 r1 r2 r3 = val4 a0 a1 a2 a3 + (a0 mod 2) * N256 /\ val4 r0 r1 r2 r3 < N256).
Proof.
  intros H0 H1 H2 H3 Hv. unfold scalar_half_k.
  assert (Hb : a0 mod 2 = 0 \/ a0 mod 2 = 1) by lia.
  assert (L1 : Z.land a0 1 = a0 mod 2) by (change 1 with (Z.ones 1); apply Z.land_ones; lia).
  change (u64 (16134479119472337056 + 1)) with 16134479119472337057.
  rewrite L1, !half_word by lia.
  bintro. match goal with Q : ?m = u64 (- (a0 mod 2)) |- _ => rewrite Q; clear Q m end.
  rewrite (land_bitmask 16134479119472337057), (land_bitmask 6725966010171805725), (land_bitmask 18446744073709551615), (land_bitmask 9223372036854775807) by (first [lia | exact Hb]).
  set (b := a0 mod 2) in *. assert (Hb01 : 0 <= b <= 1) by lia.
  apply copy_wp. wide (2^128). split64. do 2 (do 2 wide (2^128); split64).
  (* the last word does not wrap because the whole is below n *)
  bintro. reveal. intros. unfold val4, N256 in *.
  match goal with Q : ?r = u64 (u64 (u64 ?t + ?x) + ?y) |- _ =>
    assert (Er : r = t + x + y) by (rewrite Q; unfold u64; rewrite (Z.mod_small t) by lia; rewrite (Z.mod_small (t + x)) by lia; apply Z.mod_small; lia) end.
  split; [lia|]. split; lia.
Qed.
