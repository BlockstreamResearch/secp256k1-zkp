(* The carry-chain macros of Kernel/Carry.v for the 64-bit-limb scalar code (src/scalar_4x64_impl.h, portable C path: products in
   uint128_t).  The third accumulator word is an unsigned int in the multiplication and squaring, a uint64_t in the reduction. *)
From Coq Require Import ZArith.
Require Import Kernel.CSem Kernel.Bind.
Require Export Kernel.Carry.
Local Open Scope Z_scope.

Definition muladd64_wp := muladd_wp (2^64) W64 u64 u128 (fun t => t / 2^64) u64_mod u128_wide (fun _ _ => eq_refl) (2^32) u32 u32_small W32.
Definition muladd_fast64_wp := muladd_fast_wp (2^64) W64 u64 u128 (fun t => t / 2^64) u64_mod u128_wide (fun _ _ => eq_refl).
Definition muladd2_64_wp := muladd2_wp (2^64) W64 u64 u128 (fun t => t / 2^64) u64_mod u128_wide (fun _ _ => eq_refl) (2^32) u32 u32_small W32.
Definition muladd64w_wp := muladd_wp (2^64) W64 u64 u128 (fun t => t / 2^64) u64_mod u128_wide (fun _ _ => eq_refl) (2^64) u64 u64_small W64.
Definition sumadd64w_wp := sumadd_wp (2^64) W64 u64 u64_mod (2^64) u64 u32 u64_small u32_flag W64.
Definition sumadd_fast64_wp := sumadd_fast_wp (2^64) W64 u64 u64_mod.

Ltac init64 := init_acc W64.
Ltac muladd64 := macro muladd64_wp.
Ltac muladd_fast64 := macro muladd_fast64_wp.
Ltac muladd2_64 := macro muladd2_64_wp.
Ltac muladd64w := macro muladd64w_wp.
Ltac sumadd64w := macro sumadd64w_wp.
Ltac sumadd_fast64 := macro sumadd_fast64_wp.
Ltac extract64 := extract_acc W64.
Ltac extract_fast64 := extract_fast_acc W64.
Ltac split64 := split_acc W64 (fun x (_ : 0 <= x) => u64_mod x).
Ltac trunc64 := trunc_acc W64 (fun x (_ : 0 <= x) => u64_mod x).
