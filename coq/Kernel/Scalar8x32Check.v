(* Proof ABOUT the generated 32-bit-limb scalar range test (Gen/scalar8x32_check_overflow.v): the branch-free yes/no
   flag arithmetic over eight limbs decides exactly value >= n. *)
From Coq Require Import ZArith Lia List Bool.
Require Import Kernel.CSem Kernel.Scalar4x64 Gen.scalar8x32_check_overflow.
Local Open Scope Z_scope.

Definition val8w (d0 d1 d2 d3 d4 d5 d6 d7 : Z) := d0 + d1 * 2^32 + d2 * 2^64 + d3 * 2^96 + d4 * 2^128 + d5 * 2^160 + d6 * 2^192 + d7 * 2^224.

Definition val16w (l0 l1 l2 l3 l4 l5 l6 l7 l8 l9 l10 l11 l12 l13 l14 l15 : Z) := l0 + l1 * 2^32 + l2 * 2^64 + l3 * 2^96 + l4 * 2^128 + l5 * 2^160 + l6 * 2^192 + l7 * 2^224 + l8 * 2^256 + l9 * 2^288 + l10 * 2^320 + l11 * 2^352 + l12 * 2^384 + l13 * 2^416 + l14 * 2^448 + l15 * 2^480.

Lemma val8w_range d0 d1 d2 d3 d4 d5 d6 d7 :
  0 <= d0 < 2^32 -> 0 <= d1 < 2^32 -> 0 <= d2 < 2^32 -> 0 <= d3 < 2^32 -> 0 <= d4 < 2^32 -> 0 <= d5 < 2^32 -> 0 <= d6 < 2^32 -> 0 <= d7 < 2^32 ->
  0 <= val8w d0 d1 d2 d3 d4 d5 d6 d7 < 2^256.
Proof. unfold val8w. lia. Qed.

Lemma val16w_split l0 l1 l2 l3 l4 l5 l6 l7 l8 l9 l10 l11 l12 l13 l14 l15 :
  val16w l0 l1 l2 l3 l4 l5 l6 l7 l8 l9 l10 l11 l12 l13 l14 l15 = val8w l0 l1 l2 l3 l4 l5 l6 l7 + val8w l8 l9 l10 l11 l12 l13 l14 l15 * 2^256.
Proof. unfold val16w, val8w. ring. Qed.

Theorem scalar8x32_check_overflow_correct d0 d1 d2 d3 d4 d5 d6 d7 :
  0 <= d0 < 2^32 -> 0 <= d1 < 2^32 -> 0 <= d2 < 2^32 -> 0 <= d3 < 2^32 -> 0 <= d4 < 2^32 -> 0 <= d5 < 2^32 -> 0 <= d6 < 2^32 -> 0 <= d7 < 2^32 ->
  scalar8x32_check_overflow d0 d1 d2 d3 d4 d5 d6 d7 = if N256 <=? val8w d0 d1 d2 d3 d4 d5 d6 d7 then 1 else 0.
Proof.
  intros H0 H1 H2 H3 H4 H5 H6 H7.
  change (scalar8x32_check_overflow_k d0 d1 d2 d3 d4 d5 d6 d7 (fun ret => ret = b2z (N256 <=? val8w d0 d1 d2 d3 d4 d5 d6 d7))).
  cbv beta delta [scalar8x32_check_overflow_k]. intros yes no no7 no6 no5 no4 yes4 no3 yes3 no2 yes2 no1 yes1 yes0 ret.
  replace (val8w d0 d1 d2 d3 d4 d5 d6 d7) with ((((((((0 * 2^32 + d7) * 2^32 + d6) * 2^32 + d5) * 2^32 + d4) * 2^32 + d3) * 2^32 + d2) * 2^32 + d1) * 2^32 + d0)
    by (unfold val8w; ring).
  change N256 with ((((((((0 * 2^32 + (2^32 - 1)) * 2^32 + (2^32 - 1)) * 2^32 + (2^32 - 1)) * 2^32 + 4294967294) * 2^32 + 3132021990) * 2^32 + 2940772411) * 2^32 + 3218235020) * 2^32 + 3493216577).
  apply lex_ge, lex_yes, lex_no, lex_yes, lex_no, lex_yes, lex_no, lex_yes, lex_no0, lex_max, lex_no0, lex_max, lex_no0, lex_max, lex_no0, lex_init;
    (assumption || lia).
Qed.

Lemma scalar8x32_check_overflow_flag d0 d1 d2 d3 d4 d5 d6 d7 :
  0 <= d0 < 2^32 -> 0 <= d1 < 2^32 -> 0 <= d2 < 2^32 -> 0 <= d3 < 2^32 -> 0 <= d4 < 2^32 -> 0 <= d5 < 2^32 -> 0 <= d6 < 2^32 -> 0 <= d7 < 2^32 ->
  scalar8x32_check_overflow d0 d1 d2 d3 d4 d5 d6 d7 = b2z (N256 <=? val8w d0 d1 d2 d3 d4 d5 d6 d7).
Proof. exact (scalar8x32_check_overflow_correct d0 d1 d2 d3 d4 d5 d6 d7). Qed.
