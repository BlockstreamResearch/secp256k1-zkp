(* Proofs ABOUT the generated 10x26 field multiplication and squaring (Gen/fe10x26_mul_inner.v, Gen/fe10x26_sqr_inner.v:
   secp256k1_fe_mul_inner and secp256k1_fe_sqr_inner of src/field_10x26_impl.h, the field code of 32-bit targets and of
   USE_FORCE_WIDEMUL_INT64 builds): for ALL limb values within the magnitude contract (limbs below 2^30, top limb below 2^26) no 64-bit
   accumulator wraps, the output limbs are in range and the value is the product modulo p. *)
From Coq Require Import ZArith Lia List Bool.
Require Import Kernel.Bits Kernel.Interval Kernel.Field5x52 Gen.fe10x26_mul_inner Gen.fe10x26_sqr_inner.
Import ListNotations.
Local Open Scope Z_scope.

Definition val10 (d0 d1 d2 d3 d4 d5 d6 d7 d8 d9 : Z) := d0 + d1 * 2^26 + d2 * 2^52 + d3 * 2^78 + d4 * 2^104 + d5 * 2^130 + d6 * 2^156 + d7 * 2^182 + d8 * 2^208 + d9 * 2^234.
Lemma split26_eq v u c : 0 <= v -> u = v mod 2^26 -> c = v / 2^26 -> v = u + c * 2^26 /\ 0 <= u < 2^26 /\ 0 <= c.
Proof. intros Hv -> ->. dlia. Qed.
Lemma split22_eq v u c : 0 <= v -> u = v mod 2^22 -> c = v / 2^22 -> v = u + c * 2^22 /\ 0 <= u < 2^22 /\ 0 <= c.
Proof. intros Hv -> ->. dlia. Qed.

Theorem fe10x26_mul_inner_wp a0 a1 a2 a3 a4 a5 a6 a7 a8 a9 b0 b1 b2 b3 b4 b5 b6 b7 b8 b9 (Q : Z -> Z -> Z -> Z -> Z -> Z -> Z -> Z -> Z -> Z -> Prop) :
  0 <= a0 < 2^30 -> 0 <= a1 < 2^30 -> 0 <= a2 < 2^30 -> 0 <= a3 < 2^30 -> 0 <= a4 < 2^30 -> 0 <= a5 < 2^30 -> 0 <= a6 < 2^30 -> 0 <= a7 < 2^30 -> 0 <= a8 < 2^30 -> 0 <= a9 < 2^26 ->
  0 <= b0 < 2^30 -> 0 <= b1 < 2^30 -> 0 <= b2 < 2^30 -> 0 <= b3 < 2^30 -> 0 <= b4 < 2^30 -> 0 <= b5 < 2^30 -> 0 <= b6 < 2^30 -> 0 <= b7 < 2^30 -> 0 <= b8 < 2^30 -> 0 <= b9 < 2^26 ->
  (forall r0 r1 r2 r3 r4 r5 r6 r7 r8 r9,
    (0 <= r0 < 2^26 /\ 0 <= r1 < 2^26 /\ 0 <= r2 < 2^27 /\ 0 <= r3 < 2^26 /\ 0 <= r4 < 2^26 /\ 0 <= r5 < 2^26 /\ 0 <= r6 < 2^26 /\ 0 <= r7 < 2^26 /\ 0 <= r8 < 2^26 /\ 0 <= r9 < 2^22) /\
    (val10 r0 r1 r2 r3 r4 r5 r6 r7 r8 r9 - val10 a0 a1 a2 a3 a4 a5 a6 a7 a8 a9 * val10 b0 b1 b2 b3 b4 b5 b6 b7 b8 b9) mod P256 = 0 -> Q r0 r1 r2 r3 r4 r5 r6 r7 r8 r9) ->
  fe10x26_mul_inner_k a0 a1 a2 a3 a4 a5 a6 a7 a8 a9 b0 b1 b2 b3 b4 b5 b6 b7 b8 b9 Q.
Proof.
  intros until 20; intro HQ; upto_numerals.
  unfold fe10x26_mul_inner_k. repeat fits_bind.
  apply HQ; clear HQ. split.
  { repeat (split; [below_numeral|]). below_numeral. }
  (* the exact integer identity: result + (16*Dhi + c37) * p = product, where Dhi collects the limbs of the columns above 2^260 *)
  apply (mod_P256_intro _ (16 * (u0 + u1 * 2^26 + u2 * 2^52 + u3 * 2^78 + u4 * 2^104 + u5 * 2^130 + u6 * 2^156 + u7 * 2^182 + u8 * 2^208 + d18 * 2^234) + c37)).
  by_quotients. unfold val10, P256. ring.
Qed.

Theorem fe10x26_mul_inner_correct a0 a1 a2 a3 a4 a5 a6 a7 a8 a9 b0 b1 b2 b3 b4 b5 b6 b7 b8 b9 :
  0 <= a0 < 2^30 -> 0 <= a1 < 2^30 -> 0 <= a2 < 2^30 -> 0 <= a3 < 2^30 -> 0 <= a4 < 2^30 -> 0 <= a5 < 2^30 -> 0 <= a6 < 2^30 -> 0 <= a7 < 2^30 -> 0 <= a8 < 2^30 -> 0 <= a9 < 2^26 ->
  0 <= b0 < 2^30 -> 0 <= b1 < 2^30 -> 0 <= b2 < 2^30 -> 0 <= b3 < 2^30 -> 0 <= b4 < 2^30 -> 0 <= b5 < 2^30 -> 0 <= b6 < 2^30 -> 0 <= b7 < 2^30 -> 0 <= b8 < 2^30 -> 0 <= b9 < 2^26 ->
  fe10x26_mul_inner_k a0 a1 a2 a3 a4 a5 a6 a7 a8 a9 b0 b1 b2 b3 b4 b5 b6 b7 b8 b9 (fun r0 r1 r2 r3 r4 r5 r6 r7 r8 r9 =>
    (0 <= r0 < 2^26 /\ 0 <= r1 < 2^26 /\ 0 <= r2 < 2^27 /\ 0 <= r3 < 2^26 /\ 0 <= r4 < 2^26 /\ 0 <= r5 < 2^26 /\ 0 <= r6 < 2^26 /\ 0 <= r7 < 2^26 /\ 0 <= r8 < 2^26 /\ 0 <= r9 < 2^22) /\
    (val10 r0 r1 r2 r3 r4 r5 r6 r7 r8 r9 - val10 a0 a1 a2 a3 a4 a5 a6 a7 a8 a9 * val10 b0 b1 b2 b3 b4 b5 b6 b7 b8 b9) mod P256 = 0).
Proof.
  intros. apply fe10x26_mul_inner_wp; try assumption. intros r0 r1 r2 r3 r4 r5 r6 r7 r8 r9 H'. exact H'.
Qed.

Theorem fe10x26_sqr_inner_wp a0 a1 a2 a3 a4 a5 a6 a7 a8 a9 (Q : Z -> Z -> Z -> Z -> Z -> Z -> Z -> Z -> Z -> Z -> Prop) :
  0 <= a0 < 2^30 -> 0 <= a1 < 2^30 -> 0 <= a2 < 2^30 -> 0 <= a3 < 2^30 -> 0 <= a4 < 2^30 -> 0 <= a5 < 2^30 -> 0 <= a6 < 2^30 -> 0 <= a7 < 2^30 -> 0 <= a8 < 2^30 -> 0 <= a9 < 2^26 ->
  (forall r0 r1 r2 r3 r4 r5 r6 r7 r8 r9,
    (0 <= r0 < 2^26 /\ 0 <= r1 < 2^26 /\ 0 <= r2 < 2^27 /\ 0 <= r3 < 2^26 /\ 0 <= r4 < 2^26 /\ 0 <= r5 < 2^26 /\ 0 <= r6 < 2^26 /\ 0 <= r7 < 2^26 /\ 0 <= r8 < 2^26 /\ 0 <= r9 < 2^22) /\
    (val10 r0 r1 r2 r3 r4 r5 r6 r7 r8 r9 - val10 a0 a1 a2 a3 a4 a5 a6 a7 a8 a9 * val10 a0 a1 a2 a3 a4 a5 a6 a7 a8 a9) mod P256 = 0 -> Q r0 r1 r2 r3 r4 r5 r6 r7 r8 r9) ->
  fe10x26_sqr_inner_k a0 a1 a2 a3 a4 a5 a6 a7 a8 a9 Q.
Proof.
  intros until 10; intro HQ; upto_numerals.
  unfold fe10x26_sqr_inner_k. repeat fits_bind.
  apply HQ; clear HQ. split.
  { repeat (split; [below_numeral|]). below_numeral. }
  (* as for the multiplication *)
  apply (mod_P256_intro _ (16 * (u0 + u1 * 2^26 + u2 * 2^52 + u3 * 2^78 + u4 * 2^104 + u5 * 2^130 + u6 * 2^156 + u7 * 2^182 + u8 * 2^208 + d18 * 2^234) + c37)).
  by_quotients. unfold val10, P256. ring.
Qed.

Theorem fe10x26_sqr_inner_correct a0 a1 a2 a3 a4 a5 a6 a7 a8 a9 :
  0 <= a0 < 2^30 -> 0 <= a1 < 2^30 -> 0 <= a2 < 2^30 -> 0 <= a3 < 2^30 -> 0 <= a4 < 2^30 -> 0 <= a5 < 2^30 -> 0 <= a6 < 2^30 -> 0 <= a7 < 2^30 -> 0 <= a8 < 2^30 -> 0 <= a9 < 2^26 ->
  fe10x26_sqr_inner_k a0 a1 a2 a3 a4 a5 a6 a7 a8 a9 (fun r0 r1 r2 r3 r4 r5 r6 r7 r8 r9 =>
    (0 <= r0 < 2^26 /\ 0 <= r1 < 2^26 /\ 0 <= r2 < 2^27 /\ 0 <= r3 < 2^26 /\ 0 <= r4 < 2^26 /\ 0 <= r5 < 2^26 /\ 0 <= r6 < 2^26 /\ 0 <= r7 < 2^26 /\ 0 <= r8 < 2^26 /\ 0 <= r9 < 2^22) /\
    (val10 r0 r1 r2 r3 r4 r5 r6 r7 r8 r9 - val10 a0 a1 a2 a3 a4 a5 a6 a7 a8 a9 * val10 a0 a1 a2 a3 a4 a5 a6 a7 a8 a9) mod P256 = 0).
Proof.
  intros. apply fe10x26_sqr_inner_wp; try assumption. intros r0 r1 r2 r3 r4 r5 r6 r7 r8 r9 H'. exact H'.
Qed.
