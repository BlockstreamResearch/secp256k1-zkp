(* Proofs ABOUT the generated 32-bit-limb scalar multiplication and squaring (Gen/scalar8x32_mul_512.v,
   Gen/scalar8x32_sqr_512.v: src/scalar_8x32_impl.h translated with USE_FORCE_WIDEMUL_INT64, the code 32-bit targets
   compile): for ALL limb values the sixteen output limbs are the exact 512-bit product / square. *)
From Coq Require Import ZArith Lia List Bool.
Require Import Kernel.CSem Kernel.Bind Kernel.Carry32 Kernel.Scalar8x32Check Gen.scalar8x32_mul_512 Gen.scalar8x32_sqr_512.
Import ListNotations.
Local Open Scope Z_scope.
Local Opaque bind.

Theorem scalar8x32_mul_512_wp a0 a1 a2 a3 a4 a5 a6 a7 b0 b1 b2 b3 b4 b5 b6 b7 :
  0 <= a0 < 2^32 -> 0 <= a1 < 2^32 -> 0 <= a2 < 2^32 -> 0 <= a3 < 2^32 -> 0 <= a4 < 2^32 -> 0 <= a5 < 2^32 -> 0 <= a6 < 2^32 -> 0 <= a7 < 2^32 ->
  0 <= b0 < 2^32 -> 0 <= b1 < 2^32 -> 0 <= b2 < 2^32 -> 0 <= b3 < 2^32 -> 0 <= b4 < 2^32 -> 0 <= b5 < 2^32 -> 0 <= b6 < 2^32 -> 0 <= b7 < 2^32 ->
  forall Q : Z -> Z -> Z -> Z -> Z -> Z -> Z -> Z -> Z -> Z -> Z -> Z -> Z -> Z -> Z -> Z -> Prop,
  (forall l0 l1 l2 l3 l4 l5 l6 l7 l8 l9 l10 l11 l12 l13 l14 l15,
    (0 <= l0 < 2^32 /\ 0 <= l1 < 2^32 /\ 0 <= l2 < 2^32 /\ 0 <= l3 < 2^32 /\ 0 <= l4 < 2^32 /\ 0 <= l5 < 2^32 /\ 0 <= l6 < 2^32 /\ 0 <= l7 < 2^32 /\ 0 <= l8 < 2^32 /\ 0 <= l9 < 2^32 /\ 0 <= l10 < 2^32 /\ 0 <= l11 < 2^32 /\ 0 <= l12 < 2^32 /\ 0 <= l13 < 2^32 /\ 0 <= l14 < 2^32 /\ 0 <= l15 < 2^32) /\
    val16w l0 l1 l2 l3 l4 l5 l6 l7 l8 l9 l10 l11 l12 l13 l14 l15 = val8w a0 a1 a2 a3 a4 a5 a6 a7 * val8w b0 b1 b2 b3 b4 b5 b6 b7 -> Q l0 l1 l2 l3 l4 l5 l6 l7 l8 l9 l10 l11 l12 l13 l14 l15) ->
  scalar8x32_mul_512_k a0 a1 a2 a3 a4 a5 a6 a7 b0 b1 b2 b3 b4 b5 b6 b7 Q.
Proof.
  intros Ha0 Ha1 Ha2 Ha3 Ha4 Ha5 Ha6 Ha7 Hb0 Hb1 Hb2 Hb3 Hb4 Hb5 Hb6 Hb7 Q HQ. hide HQ.
  unfold scalar8x32_mul_512_k.
  init32. muladd_fast32. extract_fast32.
  do 2 muladd32. extract32. do 3 muladd32. extract32. do 4 muladd32. extract32. do 5 muladd32. extract32.
  do 6 muladd32. extract32. do 7 muladd32. extract32. do 8 muladd32. extract32. do 7 muladd32. extract32.
  do 6 muladd32. extract32. do 5 muladd32. extract32. do 4 muladd32. extract32. do 3 muladd32. extract32.
  do 2 muladd32. extract32. muladd_fast32. extract_fast32.
  last_word. unhide HQ. apply HQ. clear HQ.
  split; [limbs_ok|]. unfold val16w, val8w. reveal. lia.
Qed.

Theorem scalar8x32_sqr_512_wp a0 a1 a2 a3 a4 a5 a6 a7 :
  0 <= a0 < 2^32 -> 0 <= a1 < 2^32 -> 0 <= a2 < 2^32 -> 0 <= a3 < 2^32 -> 0 <= a4 < 2^32 -> 0 <= a5 < 2^32 -> 0 <= a6 < 2^32 -> 0 <= a7 < 2^32 ->
  forall Q : Z -> Z -> Z -> Z -> Z -> Z -> Z -> Z -> Z -> Z -> Z -> Z -> Z -> Z -> Z -> Z -> Prop,
  (forall l0 l1 l2 l3 l4 l5 l6 l7 l8 l9 l10 l11 l12 l13 l14 l15,
    (0 <= l0 < 2^32 /\ 0 <= l1 < 2^32 /\ 0 <= l2 < 2^32 /\ 0 <= l3 < 2^32 /\ 0 <= l4 < 2^32 /\ 0 <= l5 < 2^32 /\ 0 <= l6 < 2^32 /\ 0 <= l7 < 2^32 /\ 0 <= l8 < 2^32 /\ 0 <= l9 < 2^32 /\ 0 <= l10 < 2^32 /\ 0 <= l11 < 2^32 /\ 0 <= l12 < 2^32 /\ 0 <= l13 < 2^32 /\ 0 <= l14 < 2^32 /\ 0 <= l15 < 2^32) /\
    val16w l0 l1 l2 l3 l4 l5 l6 l7 l8 l9 l10 l11 l12 l13 l14 l15 = val8w a0 a1 a2 a3 a4 a5 a6 a7 * val8w a0 a1 a2 a3 a4 a5 a6 a7 -> Q l0 l1 l2 l3 l4 l5 l6 l7 l8 l9 l10 l11 l12 l13 l14 l15) ->
  scalar8x32_sqr_512_k a0 a1 a2 a3 a4 a5 a6 a7 Q.
Proof.
  intros Ha0 Ha1 Ha2 Ha3 Ha4 Ha5 Ha6 Ha7 Q HQ. hide HQ.
  unfold scalar8x32_sqr_512_k.
  init32. muladd_fast32. extract_fast32.
  muladd2_32. extract32. muladd2_32. muladd32. extract32. do 2 muladd2_32. extract32. do 2 muladd2_32. muladd32. extract32.
  do 3 muladd2_32. extract32. do 3 muladd2_32. muladd32. extract32. do 4 muladd2_32. extract32. do 3 muladd2_32. muladd32. extract32.
  do 3 muladd2_32. extract32. do 2 muladd2_32. muladd32. extract32. do 2 muladd2_32. extract32. muladd2_32. muladd32. extract32.
  muladd2_32. extract32. muladd_fast32. extract_fast32.
  last_word. unhide HQ. apply HQ. clear HQ.
  split; [limbs_ok|]. unfold val16w, val8w. reveal. lia.
Qed.

Theorem scalar8x32_mul_512_correct a0 a1 a2 a3 a4 a5 a6 a7 b0 b1 b2 b3 b4 b5 b6 b7 :
  0 <= a0 < 2^32 -> 0 <= a1 < 2^32 -> 0 <= a2 < 2^32 -> 0 <= a3 < 2^32 -> 0 <= a4 < 2^32 -> 0 <= a5 < 2^32 -> 0 <= a6 < 2^32 -> 0 <= a7 < 2^32 ->
  0 <= b0 < 2^32 -> 0 <= b1 < 2^32 -> 0 <= b2 < 2^32 -> 0 <= b3 < 2^32 -> 0 <= b4 < 2^32 -> 0 <= b5 < 2^32 -> 0 <= b6 < 2^32 -> 0 <= b7 < 2^32 ->
  scalar8x32_mul_512_k a0 a1 a2 a3 a4 a5 a6 a7 b0 b1 b2 b3 b4 b5 b6 b7 (fun l0 l1 l2 l3 l4 l5 l6 l7 l8 l9 l10 l11 l12 l13 l14 l15 =>
    (0 <= l0 < 2^32 /\ 0 <= l1 < 2^32 /\ 0 <= l2 < 2^32 /\ 0 <= l3 < 2^32 /\ 0 <= l4 < 2^32 /\ 0 <= l5 < 2^32 /\ 0 <= l6 < 2^32 /\ 0 <= l7 < 2^32 /\ 0 <= l8 < 2^32 /\ 0 <= l9 < 2^32 /\ 0 <= l10 < 2^32 /\ 0 <= l11 < 2^32 /\ 0 <= l12 < 2^32 /\ 0 <= l13 < 2^32 /\ 0 <= l14 < 2^32 /\ 0 <= l15 < 2^32) /\
    val16w l0 l1 l2 l3 l4 l5 l6 l7 l8 l9 l10 l11 l12 l13 l14 l15 = val8w a0 a1 a2 a3 a4 a5 a6 a7 * val8w b0 b1 b2 b3 b4 b5 b6 b7).
Proof.
  intros. apply scalar8x32_mul_512_wp; try assumption. intros l0 l1 l2 l3 l4 l5 l6 l7 l8 l9 l10 l11 l12 l13 l14 l15 HP. exact HP.
Qed.

Theorem scalar8x32_sqr_512_correct a0 a1 a2 a3 a4 a5 a6 a7 :
  0 <= a0 < 2^32 -> 0 <= a1 < 2^32 -> 0 <= a2 < 2^32 -> 0 <= a3 < 2^32 -> 0 <= a4 < 2^32 -> 0 <= a5 < 2^32 -> 0 <= a6 < 2^32 -> 0 <= a7 < 2^32 ->
  scalar8x32_sqr_512_k a0 a1 a2 a3 a4 a5 a6 a7 (fun l0 l1 l2 l3 l4 l5 l6 l7 l8 l9 l10 l11 l12 l13 l14 l15 =>
    (0 <= l0 < 2^32 /\ 0 <= l1 < 2^32 /\ 0 <= l2 < 2^32 /\ 0 <= l3 < 2^32 /\ 0 <= l4 < 2^32 /\ 0 <= l5 < 2^32 /\ 0 <= l6 < 2^32 /\ 0 <= l7 < 2^32 /\ 0 <= l8 < 2^32 /\ 0 <= l9 < 2^32 /\ 0 <= l10 < 2^32 /\ 0 <= l11 < 2^32 /\ 0 <= l12 < 2^32 /\ 0 <= l13 < 2^32 /\ 0 <= l14 < 2^32 /\ 0 <= l15 < 2^32) /\
    val16w l0 l1 l2 l3 l4 l5 l6 l7 l8 l9 l10 l11 l12 l13 l14 l15 = val8w a0 a1 a2 a3 a4 a5 a6 a7 * val8w a0 a1 a2 a3 a4 a5 a6 a7).
Proof.
  intros. apply scalar8x32_sqr_512_wp; try assumption. intros l0 l1 l2 l3 l4 l5 l6 l7 l8 l9 l10 l11 l12 l13 l14 l15 HP. exact HP.
Qed.
