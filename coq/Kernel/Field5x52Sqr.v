(* Proof ABOUT the generated field squaring (Gen/fe_sqr_inner.v). *)
From Coq Require Import ZArith Lia List.
Require Import Kernel.Interval Kernel.Field5x52 Gen.fe_sqr_inner.
Import ListNotations.
Local Open Scope Z_scope.

Theorem fe_sqr_inner_wp a0 a1 a2 a3 a4 (Q : Z -> Z -> Z -> Z -> Z -> Prop) :
  0 <= a0 < 2^56 -> 0 <= a1 < 2^56 -> 0 <= a2 < 2^56 -> 0 <= a3 < 2^56 -> 0 <= a4 < 2^52 ->
  (forall r0 r1 r2 r3 r4,
    (0 <= r0 < 2^52 /\ 0 <= r1 < 2^52 /\ 0 <= r2 < 2^52 /\ 0 <= r3 < 2^52 /\ 0 <= r4 < 2^49) /\
    (val5 r0 r1 r2 r3 r4 - val5 a0 a1 a2 a3 a4 * val5 a0 a1 a2 a3 a4) mod P256 = 0 -> Q r0 r1 r2 r3 r4) ->
  fe_sqr_inner_k a0 a1 a2 a3 a4 Q.
Proof.
  intros until 5; intro HQ; upto_numerals.
  cbv beta delta [fe_sqr_inner_k]. repeat fits_let.
  apply HQ; clear HQ. split.
  { repeat (split; [below_numeral|]). below_numeral. }
  (* as for the multiplication *)
  apply (mod_P256_intro _ (16 * (d9 + (2*(a2*a4) + a3*a3) * 2^52 + 2*(a3*a4) * 2^104 + a4*a4 * 2^156) + tx)).
  abstract (by_quotients; unfold val5, P256; ring).
Qed.

Theorem fe_sqr_inner_correct a0 a1 a2 a3 a4 :
  0 <= a0 < 2^56 -> 0 <= a1 < 2^56 -> 0 <= a2 < 2^56 -> 0 <= a3 < 2^56 -> 0 <= a4 < 2^52 ->
  fe_sqr_inner_k a0 a1 a2 a3 a4 (fun r0 r1 r2 r3 r4 =>
  (0 <= r0 < 2^52 /\ 0 <= r1 < 2^52 /\ 0 <= r2 < 2^52 /\ 0 <= r3 < 2^52 /\ 0 <= r4 < 2^49) /\
  (val5 r0 r1 r2 r3 r4 - val5 a0 a1 a2 a3 a4 * val5 a0 a1 a2 a3 a4) mod P256 = 0).
Proof. intros. apply fe_sqr_inner_wp; try assumption. intros r0 r1 r2 r3 r4 H'. exact H'. Qed.

