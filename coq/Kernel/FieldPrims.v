(* Proofs ABOUT further regenerated limb-level primitives (Gen/fe_impl_add.v, Gen/fe_impl_negate_unchecked.v,
   Gen/fe_impl_half.v, Gen/scalar_negate.v): exact value and magnitude contracts for ALL in-contract inputs. *)
From Coq Require Import ZArith Lia List Bool.
Require Import Kernel.CSem Kernel.Field5x52 Kernel.Scalar4x64 Kernel.CtPrimitives Kernel.FieldWp.
Require Import Gen.fe_impl_add Gen.fe_impl_negate_unchecked Gen.fe_impl_half Gen.scalar_negate.
Import ListNotations.
Local Open Scope Z_scope.

(* r += a: limb-wise, exact as long as no limb leaves 64 bits (magnitudes up to 2047 + 2047 are far inside) *)
Theorem fe_add_correct r0 r1 r2 r3 r4 a0 a1 a2 a3 a4 :
  0 <= r0 -> 0 <= r1 -> 0 <= r2 -> 0 <= r3 -> 0 <= r4 -> 0 <= a0 -> 0 <= a1 -> 0 <= a2 -> 0 <= a3 -> 0 <= a4 ->
  r0 + a0 < 2^64 -> r1 + a1 < 2^64 -> r2 + a2 < 2^64 -> r3 + a3 < 2^64 -> r4 + a4 < 2^64 ->
  fe_impl_add_k r0 r1 r2 r3 r4 a0 a1 a2 a3 a4 (fun s0 s1 s2 s3 s4 =>
    s0 = r0 + a0 /\ s1 = r1 + a1 /\ s2 = r2 + a2 /\ s3 = r3 + a3 /\ s4 = r4 + a4 /\
    val5 s0 s1 s2 s3 s4 = val5 r0 r1 r2 r3 r4 + val5 a0 a1 a2 a3 a4).
Proof.
  intros. unfold fe_impl_add_k, u64. cbv zeta. rewrite !Z.mod_small by lia. unfold val5. repeat split; lia.
Qed.

(* r = 2*(m+1)*p - a limb-wise: no limb underflows when a has magnitude <= m, the result has magnitude m+1 and is -a mod p *)
Theorem fe_negate_correct a0 a1 a2 a3 a4 m :
  0 <= m <= 31 ->
  0 <= a0 <= 2 * m * 4503599627370495 -> 0 <= a1 <= 2 * m * 4503599627370495 -> 0 <= a2 <= 2 * m * 4503599627370495 ->
  0 <= a3 <= 2 * m * 4503599627370495 -> 0 <= a4 <= 2 * m * 281474976710655 ->
  fe_impl_negate_unchecked_k a0 a1 a2 a3 a4 m (fun r0 r1 r2 r3 r4 =>
    (0 <= r0 <= 2 * (m + 1) * 4503599627370495 /\ 0 <= r1 <= 2 * (m + 1) * 4503599627370495 /\ 0 <= r2 <= 2 * (m + 1) * 4503599627370495 /\
     0 <= r3 <= 2 * (m + 1) * 4503599627370495 /\ 0 <= r4 <= 2 * (m + 1) * 281474976710655) /\
    val5 r0 r1 r2 r3 r4 = 2 * (m + 1) * P256 - val5 a0 a1 a2 a3 a4).
Proof.
  intros Hm H0 H1 H2 H3 H4. apply fe_negate_wp; lia.
Qed.

(* halving: adds p when the value is odd (branch-free mask), then shifts right across the limbs; exact for magnitude <= 31 *)
Theorem fe_half_correct t0 t1 t2 t3 t4 :
  0 <= t0 < 2^58 -> 0 <= t1 < 2^58 -> 0 <= t2 < 2^58 -> 0 <= t3 < 2^58 -> 0 <= t4 < 2^54 ->
  fe_impl_half_k t0 t1 t2 t3 t4 (fun r0 r1 r2 r3 r4 =>
    (0 <= r0 < 2^58 /\ 0 <= r1 < 2^58 /\ 0 <= r2 < 2^58 /\ 0 <= r3 < 2^58 /\ 0 <= r4 < 2^54) /\
    2 * val5 r0 r1 r2 r3 r4 = val5 t0 t1 t2 t3 t4 + (t0 mod 2) * P256).
Proof.
  intros H0 H1 H2 H3 H4. apply fe_half_wp; try assumption.
  intros r0 r1 r2 r3 r4 B V. split; [lia | exact V].
Qed.

(* The 4x64 addition with carry as the C code writes it: the running sum t stays far inside 128 bits, its low words are the
   limbs of x + y modulo 2^256.  The sums are named, so that the generated expressions can be rewritten from the inside out. *)
Lemma add4_words x0 x1 x2 x3 y0 y1 y2 y3 :
  0 <= x0 < 2^64 -> 0 <= x1 < 2^64 -> 0 <= x2 < 2^64 -> 0 <= x3 < 2^64 ->
  0 <= y0 < 2^64 -> 0 <= y1 < 2^64 -> 0 <= y2 < 2^64 -> 0 <= y3 < 2^64 ->
  exists t0 t1 t2 t3,
    u128 (x0 + y0) = t0 /\ u128 (u128 (t0 / 2^64 + x1) + y1) = t1 /\ u128 (u128 (t1 / 2^64 + x2) + y2) = t2 /\
    u128 (u128 (t2 / 2^64 + x3) + y3) = t3 /\
    val4 (u64 t0) (u64 t1) (u64 t2) (u64 t3) = (val4 x0 x1 x2 x3 + val4 y0 y1 y2 y3) mod 2^256.
Proof.
  intros X0 X1 X2 X3 Y0 Y1 Y2 Y3.
  assert (S : forall t x y, 0 <= t < 2^66 -> 0 <= x < 2^64 -> 0 <= y < 2^64 ->
                u128 (u128 (t / 2^64 + x) + y) = t / 2^64 + x + y /\ 0 <= t / 2^64 + x + y < 2^66)
    by (intros; unfold u128; rewrite (Z.mod_small (_ + x)), Z.mod_small; dlia).
  assert (E0 : u128 (x0 + y0) = x0 + y0 /\ 0 <= x0 + y0 < 2^66) by (unfold u128; rewrite Z.mod_small; lia).
  destruct E0 as [E0 B0]. destruct (S _ x1 y1 B0 X1 Y1) as [E1 B1]. destruct (S _ x2 y2 B1 X2 Y2) as [E2 B2].
  destruct (S _ x3 y3 B2 X3 Y3) as [E3 B3].
  eexists _, _, _, _. do 4 (split; [eassumption|]).
  clear - B0 B1 B2 B3. unfold val4, u64. dlia.
Qed.

(* Negation modulo n: the complement of a plus n + 1, masked to 0 when a is 0. *)
Lemma negate_words a0 a1 a2 a3 :
  0 <= a0 < 2^64 -> 0 <= a1 < 2^64 -> 0 <= a2 < 2^64 -> 0 <= a3 < 2^64 -> val4 a0 a1 a2 a3 < N256 ->
  exists t0 t1 t2 t3,
    u128 (18446744073709551615 - a0 + 13822214165235122498) = t0 /\
    u128 (u128 (t0 / 2^64 + (18446744073709551615 - a1)) + 13451932020343611451) = t1 /\
    u128 (u128 (t1 / 2^64 + (18446744073709551615 - a2)) + 18446744073709551614) = t2 /\
    u128 (u128 (t2 / 2^64 + (18446744073709551615 - a3)) + 18446744073709551615) = t3 /\
    forall nz, nz = (if (a0 =? 0) && (a1 =? 0) && (a2 =? 0) && (a3 =? 0) then 0 else 18446744073709551615) ->
      (0 <= Z.land (u64 t0) nz < 2^64 /\ 0 <= Z.land (u64 t1) nz < 2^64 /\ 0 <= Z.land (u64 t2) nz < 2^64 /\ 0 <= Z.land (u64 t3) nz < 2^64) /\
      val4 (Z.land (u64 t0) nz) (Z.land (u64 t1) nz) (Z.land (u64 t2) nz) (Z.land (u64 t3) nz) = (N256 - val4 a0 a1 a2 a3) mod N256.
Proof.
  intros H0 H1 H2 H3 Hv.
  destruct (add4_words (18446744073709551615 - a0) (18446744073709551615 - a1) (18446744073709551615 - a2) (18446744073709551615 - a3)
              13822214165235122498 13451932020343611451 18446744073709551614 18446744073709551615)
    as (t0 & t1 & t2 & t3 & E0 & E1 & E2 & E3 & V); try lia.
  exists t0, t1, t2, t3. do 4 (split; [assumption|]). intros nz ->.
  destruct ((a0 =? 0) && (a1 =? 0) && (a2 =? 0) && (a3 =? 0)) eqn:Ez.
  - rewrite !andb_true_iff, !Z.eqb_eq in Ez. destruct Ez as [[[-> ->] ->] ->]. rewrite !Z.land_0_r. repeat split; discriminate || reflexivity.
  - assert (P : 0 < 2^64) by reflexivity. unfold u64 in *. rewrite !land_all64 by (apply Z.mod_pos_bound, P).
    split; [repeat split; apply Z.mod_pos_bound, P|]. rewrite V.
    assert (Hnz : val4 a0 a1 a2 a3 <> 0).
    { intro E. unfold val4 in E.
      assert (a0 = 0 /\ a1 = 0 /\ a2 = 0 /\ a3 = 0) as (-> & -> & -> & ->) by lia. discriminate Ez. }
    clear - H0 H1 H2 H3 Hv Hnz. unfold val4, N256 in *. dlia.
Qed.

(* scalar negation: (n - a) mod n for a reduced a, through the all-ones / all-zero mask on "a is non-zero" *)
Theorem scalar_negate_correct a0 a1 a2 a3 :
  0 <= a0 < 2^64 -> 0 <= a1 < 2^64 -> 0 <= a2 < 2^64 -> 0 <= a3 < 2^64 -> val4 a0 a1 a2 a3 < N256 ->
  scalar_negate_k a0 a1 a2 a3 (fun r0 r1 r2 r3 =>
    (0 <= r0 < 2^64 /\ 0 <= r1 < 2^64 /\ 0 <= r2 < 2^64 /\ 0 <= r3 < 2^64) /\
    val4 r0 r1 r2 r3 = (N256 - val4 a0 a1 a2 a3) mod N256).
Proof.
  intros H0 H1 H2 H3 Hv. destruct (negate_words a0 a1 a2 a3 H0 H1 H2 H3 Hv) as (t0 & t1 & t2 & t3 & E0 & E1 & E2 & E3 & R).
  unfold scalar_negate_k. cbv zeta. change (u64 (13822214165235122497 + 1)) with 13822214165235122498.
  rewrite E0, E1, E2, E3. apply R. rewrite (scalar_is_zero_correct a0 a1 a2 a3) by tauto.
  destruct (_ && _); reflexivity.
Qed.
