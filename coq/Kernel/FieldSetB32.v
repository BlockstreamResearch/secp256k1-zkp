(* Proof ABOUT the generated byte-string-to-field-element conversion with range check (Gen/fe_impl_set_b32_limit.v:
   secp256k1_fe_impl_set_b32_limit of src/field_5x52_impl.h with secp256k1_fe_impl_set_b32_mod translated in place): for ALL 32-byte
   strings the five limbs hold exactly the big-endian value, and the function returns 1 exactly when that value is below p. *)
From Coq Require Import ZArith Lia List Bool.
Require Import Kernel.CSem Kernel.Bits Kernel.Field5x52 Kernel.FieldNormalize Gen.fe_impl_set_b32_limit.
Import ListNotations.
Local Open Scope Z_scope.

Definition be32 (a0 a1 a2 a3 a4 a5 a6 a7 a8 a9 a10 a11 a12 a13 a14 a15 a16 a17 a18 a19 a20 a21 a22 a23 a24 a25 a26 a27 a28 a29 a30 a31 : Z) := a0 * 2^248 + a1 * 2^240 + a2 * 2^232 + a3 * 2^224 + a4 * 2^216 + a5 * 2^208 + a6 * 2^200 + a7 * 2^192 + a8 * 2^184 + a9 * 2^176 + a10 * 2^168 + a11 * 2^160 + a12 * 2^152 + a13 * 2^144 + a14 * 2^136 + a15 * 2^128 + a16 * 2^120 + a17 * 2^112 + a18 * 2^104 + a19 * 2^96 + a20 * 2^88 + a21 * 2^80 + a22 * 2^72 + a23 * 2^64 + a24 * 2^56 + a25 * 2^48 + a26 * 2^40 + a27 * 2^32 + a28 * 2^24 + a29 * 2^16 + a30 * 2^8 + a31.
(* innermost-first: an OR whose left operand contains no further OR and is below the shift of the right operand is a sum *)
Ltac lor_to_sum :=
  repeat match goal with |- context[Z.lor ?a (?b * 2^?k)] =>
    lazymatch a with context[Z.lor _ _] => fail | _ => rewrite (lor_add_disjoint a b k) by (dlia) end end.

Theorem fe_set_b32_limit_correct a0 a1 a2 a3 a4 a5 a6 a7 a8 a9 a10 a11 a12 a13 a14 a15 a16 a17 a18 a19 a20 a21 a22 a23 a24 a25 a26 a27 a28 a29 a30 a31 :
  0 <= a0 < 256 -> 0 <= a1 < 256 -> 0 <= a2 < 256 -> 0 <= a3 < 256 -> 0 <= a4 < 256 -> 0 <= a5 < 256 -> 0 <= a6 < 256 -> 0 <= a7 < 256 -> 0 <= a8 < 256 -> 0 <= a9 < 256 -> 0 <= a10 < 256 -> 0 <= a11 < 256 -> 0 <= a12 < 256 -> 0 <= a13 < 256 -> 0 <= a14 < 256 -> 0 <= a15 < 256 -> 0 <= a16 < 256 -> 0 <= a17 < 256 -> 0 <= a18 < 256 -> 0 <= a19 < 256 -> 0 <= a20 < 256 -> 0 <= a21 < 256 -> 0 <= a22 < 256 -> 0 <= a23 < 256 -> 0 <= a24 < 256 -> 0 <= a25 < 256 -> 0 <= a26 < 256 -> 0 <= a27 < 256 -> 0 <= a28 < 256 -> 0 <= a29 < 256 -> 0 <= a30 < 256 -> 0 <= a31 < 256 ->
  fe_impl_set_b32_limit_k a0 a1 a2 a3 a4 a5 a6 a7 a8 a9 a10 a11 a12 a13 a14 a15 a16 a17 a18 a19 a20 a21 a22 a23 a24 a25 a26 a27 a28 a29 a30 a31 (fun r0 r1 r2 r3 r4 ret =>
    (0 <= r0 < 2^52 /\ 0 <= r1 < 2^52 /\ 0 <= r2 < 2^52 /\ 0 <= r3 < 2^52 /\ 0 <= r4 < 2^48) /\
    val5 r0 r1 r2 r3 r4 = be32 a0 a1 a2 a3 a4 a5 a6 a7 a8 a9 a10 a11 a12 a13 a14 a15 a16 a17 a18 a19 a20 a21 a22 a23 a24 a25 a26 a27 a28 a29 a30 a31 /\
    ret = (if be32 a0 a1 a2 a3 a4 a5 a6 a7 a8 a9 a10 a11 a12 a13 a14 a15 a16 a17 a18 a19 a20 a21 a22 a23 a24 a25 a26 a27 a28 a29 a30 a31 <? P256 then 1 else 0)).
Proof.
  intros H0 H1 H2 H3 H4 H5 H6 H7 H8 H9 H10 H11 H12 H13 H14 H15 H16 H17 H18 H19 H20 H21 H22 H23 H24 H25 H26 H27 H28 H29 H30 H31.
  unfold fe_impl_set_b32_limit_k. cbv zeta.
  rewrite !land15. unfold u64.
  repeat match goal with |- context[?x mod 2^64] => rewrite (Z.mod_small x (2^64)) by (dlia) end.
  lor_to_sum.
  set (r0 := a31 + a30 * 2^8 + a29 * 2^16 + a28 * 2^24 + a27 * 2^32 + a26 * 2^40 + a25 mod 2^4 * 2^48).
  set (r1 := (a25 / 2^4) mod 2^4 + a24 * 2^4 + a23 * 2^12 + a22 * 2^20 + a21 * 2^28 + a20 * 2^36 + a19 * 2^44).
  set (r2 := a18 + a17 * 2^8 + a16 * 2^16 + a15 * 2^24 + a14 * 2^32 + a13 * 2^40 + a12 mod 2^4 * 2^48).
  set (r3 := (a12 / 2^4) mod 2^4 + a11 * 2^4 + a10 * 2^12 + a9 * 2^20 + a8 * 2^28 + a7 * 2^36 + a6 * 2^44).
  set (r4 := a5 + a4 * 2^8 + a3 * 2^16 + a2 * 2^24 + a1 * 2^32 + a0 * 2^40).
  assert (R0 : 0 <= r0 < 2^52) by (clear - H25 H26 H27 H28 H29 H30 H31; unfold r0; dlia).
  assert (R1 : 0 <= r1 < 2^52) by (clear - H19 H20 H21 H22 H23 H24 H25; unfold r1; dlia).
  assert (R2 : 0 <= r2 < 2^52) by (clear - H12 H13 H14 H15 H16 H17 H18; unfold r2; dlia).
  assert (R3 : 0 <= r3 < 2^52) by (clear - H6 H7 H8 H9 H10 H11 H12; unfold r3; dlia).
  assert (R4 : 0 <= r4 < 2^48) by (clear - H0 H1 H2 H3 H4 H5; unfold r4; lia).
  assert (V : val5 r0 r1 r2 r3 r4 = be32 a0 a1 a2 a3 a4 a5 a6 a7 a8 a9 a10 a11 a12 a13 a14 a15 a16 a17 a18 a19 a20 a21 a22 a23 a24 a25 a26 a27 a28 a29 a30 a31)
    by (clear - H12 H25; unfold val5, be32, r0, r1, r2, r3, r4; dlia).
  split; [tauto|]. split; [exact V|]. rewrite <- V.
  (* the C code tests "not (r >= p)" with the three middle limbs ANDed in the other order *)
  rewrite (Z.land_comm r3 r2), (Z.land_comm _ r1), Z.land_assoc, ge_P_test by assumption.
  destruct (Z.leb_spec P256 (val5 r0 r1 r2 r3 r4)), (Z.ltb_spec (val5 r0 r1 r2 r3 r4) P256); reflexivity || lia.
Qed.
