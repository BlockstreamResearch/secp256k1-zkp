(* The carry-chain macros of the scalar code (src/scalar_4x64_impl.h, src/scalar_8x32_impl.h: muladd, muladd_fast, muladd2,
   sumadd, sumadd_fast, extract, extract_fast on an accumulator (c0,c1,c2) of three words), once for every word size W.
   [acc c0 c1 c2 v B] says that the accumulator holds the value v, which is at most the numeral B.  Each macro is a lemma in
   weakest-precondition form over the whole run of assignments it expands to: it adds its operand to v and its operand's bound
   to B, and its only side condition is a comparison of numerals (the third word cannot wrap because B is small enough).  A proof
   that steps through a chain of macros therefore never looks at more than one hypothesis about the accumulator; the equations
   [v = limb + W * v'] that the extractions leave behind are kept out of sight ([hidden]) until the final summation. *)
From Coq Require Import ZArith Lia.
Require Import Kernel.CSem Kernel.Bind.
Local Open Scope Z_scope.

Definition hidden (P : Prop) : Prop := P.
Ltac hide H := match type of H with ?T => change (hidden T) in H end.
Ltac unhide H := unfold hidden in H.

Section Carry.
Variable W : Z.
Hypothesis W2 : 2 <= W.

Definition acc (c0 c1 c2 v B : Z) : Prop :=
  (0 <= c0 < W /\ 0 <= c1 < W /\ 0 <= c2) /\ c0 + c1 * W + c2 * (W * W) = v /\ v <= B.

(* carry detection by comparison: (x + y) mod W < y  iff  x + y wrapped *)
Lemma add_carry x y : 0 <= x < W -> 0 <= y < W ->
  exists k, (k = 0 \/ k = 1) /\ b2z ((x + y) mod W <? y) = k /\ (x + y) mod W = x + y - k * W.
Proof.
  intros Hx Hy. destruct (Z_lt_le_dec (x + y) W) as [L | L].
  - exists 0. rewrite Z.mod_small by lia. destruct (Z.ltb_spec (x + y) y); cbn [b2z]; lia.
  - exists 1. assert (E : (x + y) mod W = x + y - W) by (symmetry; apply (Z.mod_unique_pos _ _ 1); lia).
    rewrite E. destruct (Z.ltb_spec (x + y - W) y); cbn [b2z]; lia.
Qed.

Lemma hi_bound p : 0 <= p <= (W - 1) * (W - 1) -> 0 <= p / W <= W - 2.
Proof.
  intros Hp. split; [apply Z.div_pos; lia|].
  assert (p / W < W - 1); [apply Z.div_lt_upper_bound; nia | lia].
Qed.

(* the third word of a value below M2 * W^2 is below M2 *)
Lemma acc_intro n0 n1 n2 v B M2 : 0 <= n0 < W -> 0 <= n1 < W -> 0 <= n2 -> n0 + n1 * W + n2 * (W * W) = v -> v <= B ->
  B < M2 * (W * W) -> n2 < M2 /\ acc n0 n1 n2 v B.
Proof.
  intros H0 H1 H2 Hv HB HM. split; [|unfold acc; lia].
  apply Z.mul_lt_mono_pos_r with (p := W * W); [apply Z.mul_pos_pos; lia|].
  assert (0 <= n1 * W) by (apply Z.mul_nonneg_nonneg; lia). lia.
Qed.

(* the arithmetic of muladd, of which the other additions are special cases: (c0,c1,c2) += p *)
Lemma acc_add c0 c1 c2 v B p Bp M2 :
  acc c0 c1 c2 v B -> 0 <= p <= Bp -> Bp <= (W - 1) * (W - 1) -> B + Bp < M2 * (W * W) ->
  forall tl th n0 k0 th2 n1 k1, tl = p mod W -> th = p / W -> n0 = (c0 + tl) mod W -> k0 = b2z (n0 <? tl) -> th2 = th + k0 ->
  n1 = (c1 + th2) mod W -> k1 = b2z (n1 <? th2) ->
  (0 <= k0 <= 1 /\ 0 <= th2 < W) /\ (0 <= k1 <= 1 /\ 0 <= c2 + k1 < M2) /\ acc n0 n1 (c2 + k1) (v + p) (B + Bp).
Proof.
  intros ((H0 & H1 & H2) & Hv & HB) Hp HBp HM tl th n0 k0 th2 n1 k1 -> -> -> -> -> -> ->.
  pose proof (hi_bound p ltac:(lia)) as Hth. pose proof (Z.mod_pos_bound p W ltac:(lia)) as Htl.
  pose proof (Z.div_mod p W ltac:(lia)) as Ep.
  destruct (add_carry c0 (p mod W) H0 Htl) as (k0 & Hk0 & -> & E0).
  assert (Hth2 : 0 <= p / W + k0 < W) by lia.
  destruct (add_carry c1 (p / W + k0) H1 Hth2) as (k1 & Hk1 & -> & E1).
  pose proof (Z.mod_pos_bound (c0 + p mod W) W ltac:(lia)) as Hn0. pose proof (Z.mod_pos_bound (c1 + (p / W + k0)) W ltac:(lia)) as Hn1.
  rewrite E0 in *. rewrite E1 in *.
  destruct (acc_intro _ _ (c2 + k1) (v + p) (B + Bp) M2 Hn0 Hn1) as (Hc & A);
    [lia | rewrite <- Hv; rewrite Ep at 3; ring | lia | exact HM |].
  split; [lia|]. split; [lia | exact A].
Qed.

(* two carries into a word that is at most W - 2 wrap it at most to zero, which is the one case the code tests for *)
Lemma add_carries x kb kc : 0 <= x <= W - 2 -> kb = 0 \/ kb = 1 -> kc = 0 \/ kc = 1 ->
  exists kd, (kd = 0 \/ kd = 1) /\ Z.land kc (b2z ((x + kb + kc) mod W =? 0)) = kd /\ (x + kb + kc) mod W = x + kb + kc - kd * W.
Proof.
  intros Hx Hkb Hkc. destruct (Z_lt_le_dec (x + kb + kc) W) as [L | L].
  - exists 0. rewrite Z.mod_small by lia. split; [now left|]. split; [|lia].
    destruct Hkc as [-> | ->]; [reflexivity|]. destruct (Z.eqb_spec (x + kb + 1) 0); [lia | reflexivity].
  - exists 1. assert (kb = 1 /\ kc = 1 /\ x = W - 2) as (-> & -> & ->) by lia.
    replace (W - 2 + 1 + 1) with (0 + 1 * W) by ring. rewrite Z.mod_add, Z.mod_0_l by lia.
    split; [now right|]. split; [reflexivity | lia].
Qed.

(* the word size is even, so a doubled word is at most W - 2 *)
Lemma double_carry x : Z.even W = true -> 0 <= x < W ->
  exists k, (k = 0 \/ k = 1) /\ b2z ((x + x) mod W <? x) = k /\ (x + x) mod W = x + x - k * W /\ 0 <= x + x - k * W <= W - 2.
Proof.
  intros [h Hh]%Z.even_spec Hx. destruct (add_carry x x Hx Hx) as (k & Hk & Ek & E). exists k.
  pose proof (Z.mod_pos_bound (x + x) W ltac:(lia)) as Hm. rewrite E in Hm.
  repeat split; try assumption; destruct Hk as [-> | ->]; lia.
Qed.

(* muladd2: (c0,c1,c2) += 2 * p *)
Lemma acc_add2 c0 c1 c2 v B p Bp M2 : Z.even W = true ->
  acc c0 c1 c2 v B -> 0 <= p <= Bp -> Bp <= (W - 1) * (W - 1) -> B + 2 * Bp < M2 * (W * W) ->
  forall tl th th2 ka tl2 kb n0 kc th2c kd n1 ke, tl = p mod W -> th = p / W ->
  th2 = (th + th) mod W -> ka = b2z (th2 <? th) -> tl2 = (tl + tl) mod W -> kb = b2z (tl2 <? tl) ->
  n0 = (c0 + tl2) mod W -> kc = b2z (n0 <? tl2) -> th2c = (th2 + kb + kc) mod W -> kd = Z.land kc (b2z (th2c =? 0)) ->
  n1 = (c1 + th2c) mod W -> ke = b2z (n1 <? th2c) ->
  (0 <= ka <= 1 /\ 0 <= kb <= 1 /\ 0 <= th2 + kb < W /\ 0 <= kc <= 1) /\ (0 <= kd <= 1 /\ 0 <= ke <= 1 /\ 0 <= c2 + ka + kd + ke < M2) /\
  acc n0 n1 (c2 + ka + kd + ke) (v + 2 * p) (B + 2 * Bp).
Proof.
  intros HW ((H0 & H1 & H2) & Hv & HB) Hp HBp HM tl th th2 ka tl2 kb n0 kc th2c kd n1 ke -> -> -> -> -> -> -> -> -> -> -> ->.
  assert (Hth : 0 <= p / W < W) by (pose proof (hi_bound p ltac:(lia)); lia).
  pose proof (Z.mod_pos_bound p W ltac:(lia)) as Htl. pose proof (Z.div_mod p W ltac:(lia)) as Ep.
  set (th := p / W) in *. set (tl := p mod W) in *.
  destruct (double_carry th HW Hth) as (ka & Hka & -> & -> & Hth2).
  destruct (double_carry tl HW Htl) as (kb & Hkb & -> & -> & Htl2).
  assert (Htl2' : 0 <= tl + tl - kb * W < W) by lia.
  destruct (add_carry c0 _ H0 Htl2') as (kc & Hkc & -> & Ec).
  destruct (add_carries _ kb kc Hth2 Hkb Hkc) as (kd & Hkd & -> & Ed). rewrite Ed.
  assert (Hth2c : 0 <= th + th - ka * W + kb + kc - kd * W < W) by (rewrite <- Ed; apply Z.mod_pos_bound; lia).
  destruct (add_carry c1 _ H1 Hth2c) as (ke & Hke & -> & Ee).
  pose proof (Z.mod_pos_bound (c0 + (tl + tl - kb * W)) W ltac:(lia)) as Hn0.
  pose proof (Z.mod_pos_bound (c1 + (th + th - ka * W + kb + kc - kd * W)) W ltac:(lia)) as Hn1.
  rewrite Ec in *. rewrite Ee in *.
  destruct (acc_intro _ _ (c2 + ka + kd + ke) (v + 2 * p) (B + 2 * Bp) M2 Hn0 Hn1) as (Hc & A);
    [clear - H2 Hka Hkd Hke; lia | rewrite <- Hv, Ep; ring | clear - HB Hp; lia | exact HM |].
  clear - Hka Hkb Hkc Hkd Hke Hth2 H2 Hc A. split; [lia|]. split; [lia | exact A].
Qed.

(* extract: the low word leaves, the rest moves down; what is left is bounded by B / W *)
Lemma acc_extract c0 c1 c2 v B : acc c0 c1 c2 v B -> B < W * W * W ->
  0 <= c0 < W /\ v = c0 + W * (c1 + c2 * W) /\ acc c1 c2 0 (c1 + c2 * W) (B / W).
Proof.
  intros ((H0 & H1 & H2) & Hv & HB) HBW. split; [exact H0|]. split; [rewrite <- Hv; ring|].
  assert (Hq : c1 + c2 * W <= B / W) by (apply Z.div_le_lower_bound; nia).
  assert (c2 < W) by nia. unfold acc. lia.
Qed.

Lemma acc_low c0 v B : acc c0 0 0 v B -> 0 <= c0 < B + 1 /\ c0 = v.
Proof. unfold acc. lia. Qed.

Lemma acc_init x N : 0 <= x < N -> N <= W -> acc x 0 0 x (N - 1).
Proof. unfold acc. lia. Qed.

(* the macros as they read in the translated code, for any wrapping functions that agree with the arithmetic above:
   [lo] reduces to a word, [wide] to a double word, [hi] takes the upper word of a double word, [w2] is the wrap of the third
   accumulator word (of M2 values), [wo] the wrap of sumadd's carry flag *)
Variables lo wide hi : Z -> Z.
Hypothesis Hlo : forall x, lo x = x mod W.
Hypothesis Hwide : forall x, 0 <= x < W * W -> wide x = x.
Hypothesis Hhi : forall x, 0 <= x < W * W -> hi x = x / W.

Lemma prod_bound a Na b Nb : 0 <= a < Na -> 0 <= b < Nb -> Na <= W -> Nb <= W ->
  0 <= a * b <= (Na - 1) * (Nb - 1) /\ (Na - 1) * (Nb - 1) <= (W - 1) * (W - 1).
Proof. intros. nia. Qed.

Lemma muladd_fast_wp (K : Z -> Z -> Prop) c0 c1 v B a Na b Nb :
  acc c0 c1 0 v B -> 0 <= a < Na -> 0 <= b < Nb -> Na <= W -> Nb <= W -> B + (Na - 1) * (Nb - 1) < W * W ->
  (forall n0 n1, acc n0 n1 0 (v + a * b) (B + (Na - 1) * (Nb - 1)) -> K n0 n1) ->
  bind (wide (a * b)) (fun t => bind (hi t) (fun th => bind (lo t) (fun tl => bind (lo (c0 + tl)) (fun n0 =>
  bind (lo (th + lo (b2z (n0 <? tl)))) (fun th2 => bind (lo (c1 + th2)) (fun n1 => K n0 n1)))))).
Proof.
  intros A Ha Hb HNa HNb HB HK. destruct (prod_bound a Na b Nb Ha Hb HNa HNb) as (Hp & HBp).
  unfold bind. rewrite Hwide, Hhi by nia. rewrite !Hlo.
  destruct (acc_add _ _ _ _ _ _ _ 1 A Hp HBp ltac:(lia) _ _ _ _ _ _ _ eq_refl eq_refl eq_refl eq_refl eq_refl eq_refl eq_refl) as ((Hk0 & Ht) & (Hk1 & Hc) & A').
  rewrite (Z.mod_small (b2z _) W) by lia. rewrite (Z.mod_small (_ / W + _) W) by lia.
  apply HK. match type of A' with acc _ _ (0 + ?k) _ _ => replace k with 0 in A' by lia end. exact A'.
Qed.

Lemma sumadd_fast_wp (K : Z -> Z -> Prop) c0 c1 v B a Na :
  acc c0 c1 0 v B -> 0 <= a < Na -> Na <= W -> B + (Na - 1) < W * W ->
  (forall n0 n1, acc n0 n1 0 (v + a) (B + (Na - 1)) -> K n0 n1) ->
  bind (lo (c0 + a)) (fun n0 => bind (lo (c1 + lo (b2z (n0 <? a)))) (fun n1 => K n0 n1)).
Proof.
  intros A Ha HNa HB HK. unfold bind. rewrite !Hlo.
  destruct (acc_add _ _ _ _ _ a (Na - 1) 1 A ltac:(lia) ltac:(nia) ltac:(lia) a 0 _ _ (b2z (_ <? a)) _ _
              (eq_sym (Z.mod_small a W ltac:(lia))) (eq_sym (Z.div_small a W ltac:(lia))) eq_refl eq_refl eq_refl eq_refl eq_refl) as ((Hk0 & Ht) & (Hk1 & Hc) & A').
  rewrite (Z.mod_small (b2z _) W) by lia.
  apply HK. match type of A' with acc _ _ (0 + ?k) _ _ => replace k with 0 in A' by lia end. exact A'.
Qed.

Variables (M2 : Z) (w2 wo : Z -> Z).
Hypothesis Hw2 : forall x, 0 <= x < M2 -> w2 x = x.
Hypothesis Hwo : forall x, 0 <= x <= 1 -> wo x = x.
Hypothesis HM2 : 2 <= M2.

Lemma muladd_wp (K : Z -> Z -> Z -> Prop) c0 c1 c2 v B a Na b Nb :
  acc c0 c1 c2 v B -> 0 <= a < Na -> 0 <= b < Nb -> Na <= W -> Nb <= W -> B + (Na - 1) * (Nb - 1) < M2 * (W * W) ->
  (forall n0 n1 n2, acc n0 n1 n2 (v + a * b) (B + (Na - 1) * (Nb - 1)) -> K n0 n1 n2) ->
  bind (wide (a * b)) (fun t => bind (hi t) (fun th => bind (lo t) (fun tl => bind (lo (c0 + tl)) (fun n0 =>
  bind (lo (th + lo (b2z (n0 <? tl)))) (fun th2 => bind (lo (c1 + th2)) (fun n1 => bind (w2 (c2 + w2 (b2z (n1 <? th2)))) (fun n2 =>
  K n0 n1 n2))))))).
Proof.
  intros A Ha Hb HNa HNb HB HK. destruct (prod_bound a Na b Nb Ha Hb HNa HNb) as (Hp & HBp).
  unfold bind. rewrite Hwide, Hhi by nia. rewrite !Hlo.
  destruct (acc_add _ _ _ _ _ _ _ _ A Hp HBp HB _ _ _ _ _ _ _ eq_refl eq_refl eq_refl eq_refl eq_refl eq_refl eq_refl) as ((Hk0 & Ht) & (Hk1 & Hc) & A').
  rewrite (Z.mod_small (b2z _) W) by lia. rewrite (Z.mod_small (_ / W + _) W) by lia.
  rewrite (Hw2 (b2z _)) by lia. rewrite Hw2 by lia. apply HK, A'.
Qed.

Lemma muladd2_wp (K : Z -> Z -> Z -> Prop) c0 c1 c2 v B a Na b Nb :
  acc c0 c1 c2 v B -> Z.even W = true -> 0 <= a < Na -> 0 <= b < Nb -> Na <= W -> Nb <= W -> B + 2 * ((Na - 1) * (Nb - 1)) < M2 * (W * W) ->
  (forall n0 n1 n2, acc n0 n1 n2 (v + 2 * (a * b)) (B + 2 * ((Na - 1) * (Nb - 1))) -> K n0 n1 n2) ->
  bind (wide (a * b)) (fun t => bind (hi t) (fun th => bind (lo t) (fun tl => bind (lo (th + th)) (fun th2 =>
  bind (w2 (c2 + w2 (b2z (th2 <? th)))) (fun c2a => bind (lo (tl + tl)) (fun tl2 => bind (lo (th2 + lo (b2z (tl2 <? tl)))) (fun th2b =>
  bind (lo (c0 + tl2)) (fun n0 => bind (lo (th2b + lo (b2z (n0 <? tl2)))) (fun th2c =>
  bind (w2 (c2a + w2 (Z.land (b2z (n0 <? tl2)) (b2z (th2c =? 0))))) (fun c2b => bind (lo (c1 + th2c)) (fun n1 =>
  bind (w2 (c2b + w2 (b2z (n1 <? th2c)))) (fun n2 => K n0 n1 n2)))))))))))).
Proof.
  intros A HW Ha Hb HNa HNb HB HK. destruct (prod_bound a Na b Nb Ha Hb HNa HNb) as (Hp & HBp).
  unfold bind. rewrite Hwide, Hhi by nia. rewrite !Hlo.
  destruct (acc_add2 _ _ _ _ _ _ _ _ HW A Hp HBp HB _ _ _ _ _ _ _ _ _ _ _ _ eq_refl eq_refl eq_refl eq_refl eq_refl eq_refl eq_refl eq_refl eq_refl eq_refl eq_refl eq_refl)
    as ((Hka & Hkb & Ht & Hkc) & (Hkd & Hke & Hc) & A').
  assert (Hc2 : 0 <= c2) by apply A.
  rewrite (Z.mod_small (b2z (_ <? a * b mod W)) W) by lia. rewrite (Z.mod_small (_ + b2z _) W) by lia.
  rewrite (Z.mod_small (b2z (_ <? (_ + _) mod W)) W) by lia.
  rewrite (Hw2 (b2z _)) by lia. rewrite (Hw2 (c2 + _)) by lia. rewrite (Hw2 (Z.land _ _)) by lia. rewrite (Hw2 (c2 + _ + _)) by lia.
  rewrite (Hw2 (b2z _)) by lia. rewrite Hw2 by lia. apply HK, A'.
Qed.

Lemma sumadd_wp (K : Z -> Z -> Z -> Prop) c0 c1 c2 v B a Na :
  acc c0 c1 c2 v B -> 0 <= a < Na -> Na <= W -> B + (Na - 1) < M2 * (W * W) ->
  (forall n0 n1 n2, acc n0 n1 n2 (v + a) (B + (Na - 1)) -> K n0 n1 n2) ->
  bind (lo (c0 + a)) (fun n0 => bind (wo (b2z (n0 <? a))) (fun over => bind (lo (c1 + over)) (fun n1 =>
  bind (w2 (c2 + w2 (b2z (n1 <? over)))) (fun n2 => K n0 n1 n2)))).
Proof.
  intros A Ha HNa HB HK. unfold bind. rewrite !Hlo.
  destruct (acc_add _ _ _ _ _ a (Na - 1) _ A ltac:(lia) ltac:(nia) HB a 0 _ _ (b2z (_ <? a)) _ _
              (eq_sym (Z.mod_small a W ltac:(lia))) (eq_sym (Z.div_small a W ltac:(lia))) eq_refl eq_refl eq_refl eq_refl eq_refl) as ((Hk0 & Ht) & (Hk1 & Hc) & A').
  rewrite Hwo by lia.
  rewrite (Hw2 (b2z _)) by lia. rewrite Hw2 by lia. apply HK, A'.
Qed.

(* the copies: [bind x f] is [f x], so no name is introduced for them *)
Lemma extract_wp (K : Z -> Z -> Z -> Z -> Prop) c0 c1 c2 v B :
  acc c0 c1 c2 v B -> B < W * W * W ->
  (0 <= c0 < W -> hidden (v = c0 + W * (c1 + c2 * W)) -> acc c1 c2 0 (c1 + c2 * W) (B / W) -> K c0 c1 c2 0) ->
  bind c0 (fun l => bind c1 (fun d0 => bind c2 (fun d1 => bind 0 (fun d2 => K l d0 d1 d2)))).
Proof. intros A HB HK. destruct (acc_extract _ _ _ _ _ A HB) as (H0 & E & A'). exact (HK H0 E A'). Qed.

Lemma extract_fast_wp (K : Z -> Z -> Z -> Prop) c0 c1 v B :
  acc c0 c1 0 v B ->
  (0 <= c0 < W -> hidden (v = c0 + W * c1) -> acc c1 0 0 c1 (B / W) -> K c0 c1 0) ->
  bind c0 (fun l => bind c1 (fun d0 => bind 0 (fun d1 => K l d0 d1))).
Proof.
  intros A HK. assert (A0 : acc c0 c1 0 v (Z.min B (W * W - 1))) by (unfold acc in *; nia).
  destruct (acc_extract _ _ _ _ _ A0 ltac:(nia)) as (H0 & E & ((? & ? & ?) & ? & HB')).
  apply HK; [exact H0 | unfold hidden; lia |].
  assert (Z.min B (W * W - 1) / W <= B / W) by (apply Z.div_le_mono; lia). unfold acc. lia.
Qed.

Lemma init_wp (K : Z -> Z -> Z -> Prop) x N : 0 <= x < N -> N <= W -> (acc x 0 0 x (N - 1) -> K x 0 0) ->
  bind x (fun c0 => bind 0 (fun c1 => bind 0 (fun c2 => K c0 c1 c2))).
Proof. intros Hx HN HK. exact (HK (acc_init x N Hx HN)). Qed.

(* a double-word accumulator from which words are taken by a truncation [low] and a shift (the last folding stage of the reductions,
   the additions): the low word leaves, what is left is again a word *)
Lemma split_wp (low : Z -> Z) (K : Z -> Z -> Prop) e : (forall x, 0 <= x -> low x = x mod W) -> 0 <= e < W * W ->
  (forall r c, 0 <= r < W -> 0 <= c < W -> hidden (e = r + W * c) -> K r c) ->
  bind (low e) (fun r => bind (e / W) (fun c => K r c)).
Proof.
  intros Hlow He HK. unfold bind. rewrite Hlow by lia. apply HK.
  - apply Z.mod_pos_bound. lia.
  - split; [apply Z.div_pos | apply Z.div_lt_upper_bound]; lia.
  - unfold hidden. rewrite Z.add_comm. apply Z.div_mod. lia.
Qed.

Lemma trunc_wp (low : Z -> Z) (K : Z -> Prop) e : (forall x, 0 <= x -> low x = x mod W) -> 0 <= e < W * W ->
  (forall r c, 0 <= r < W -> 0 <= c < W -> hidden (e = r + W * c) -> K r) ->
  bind (low e) K.
Proof. intros Hlow He HK. exact (split_wp low (fun r _ => K r) e Hlow He HK). Qed.
End Carry.

(* the next assignment: a fresh variable named after the C variable, and its defining equation *)
Ltac bintro :=
  lazymatch goal with |- bind _ (fun x => _) =>
    apply bind_intro; let x' := fresh x in let H := fresh "Q" in intros x' H; cbv beta end.
Lemma copy_wp {A} (K : A -> Prop) x : K x -> bind x K.
Proof. exact (fun H => H). Qed.
Ltac copy := lazymatch goal with |- bind ?e _ => first [is_var e | constr_eq e 0] end; apply copy_wp.
(* an assignment whose wraps do nothing: E is the value as the code computes it, e the same without the wraps, which takes
   the place of the variable *)
Lemma wrap_wp M (K : Z -> Prop) E e : E = e -> 0 <= e < M -> K e -> bind (E mod M) K.
Proof. intros -> He HK. unfold bind. rewrite Z.mod_small by exact He. exact HK. Qed.

(* side conditions: comparisons of numerals, and the bound of an operand, which is a hypothesis or, for a constant, itself *)
Lemma self_bound b : 0 <= b -> 0 <= b < b + 1.
Proof. lia. Qed.
Ltac numerals := lazymatch goal with |- _ <= _ => lazy; discriminate | |- _ => lazy; reflexivity end.
Ltac operand := lazymatch goal with |- _ <= ?a < _ => tryif is_var a then eassumption else (apply self_bound; numerals) end.
Ltac side := lazymatch goal with |- _ /\ _ => operand | |- _ => numerals end.

(* one macro, by its lemma L: the accumulator is the one hypothesis of that form, and is replaced by the new one.  The files that
   step through chains declare [bind] opaque: a chain that does not have the macro's shape then fails at once, where the
   unifier would otherwise unfold [bind] level by level (for hours, on a chain of hundreds). *)
Ltac macro L :=
  lazymatch goal with A : acc _ _ _ _ _ _ |- _ =>
    first [eapply L | fail 1 "the assignments ahead are not those of" L]; [exact A | side .. | clear A; intros] end.
Ltac init_acc W2 := eapply (init_wp _ W2); [side .. | intros].
(* the extracted limb takes the name it has in the C source; the bound of what is left is evaluated *)
Ltac norm_acc A :=
  lazymatch type of A with acc ?W ?a ?b ?c ?v ?B => let B' := eval vm_compute in B in change (acc W a b c v B') in A end.
Ltac extract_acc W2 :=
  lazymatch goal with A : acc _ ?c _ _ _ _ |- bind _ (fun x => _) => let l := fresh x in
    eapply (extract_wp _ W2); [exact A | numerals | clear A; intros ?L ?E A; norm_acc A; rename c into l] end.
Ltac extract_fast_acc W2 :=
  lazymatch goal with A : acc _ ?c _ _ _ _ |- bind _ (fun x => _) => let l := fresh x in
    eapply (extract_fast_wp _ W2); [exact A | clear A; intros ?L ?E A; norm_acc A; rename c into l] end.
(* [wrap_wp] at the width M of the outermost wrap: the wraps go innermost first, so that each side condition is about a sum of
   bounded variables *)
Ltac unwrap :=
  unfold u128, u64, u32;
  repeat match goal with |- context [?x mod ?m] =>
    lazymatch x with context [_ mod _] => fail | _ => rewrite (Z.mod_small x m) by lia end end;
  reflexivity.
Ltac wide M := eapply (wrap_wp M); [unwrap | lia | ].
Lemma b2z_range b : 0 <= b2z b <= 1.
Proof. destruct b; cbn; lia. Qed.
(* the same (by WP, which is [wrap_wp] at some width) where the value contains a range test, by the lemma L that says which
   comparison g it decides; its outcome is called [flag] from there on *)
Ltac flag_step WP L g :=
  pose proof (b2z_range g); eapply WP; [rewrite L by assumption; unwrap | lia | ]; set (flag := b2z g) in *.
(* [split_wp], [trunc_wp] by the lemma H about the truncation; limb and carry take the names they have in the C source *)
Ltac split_acc W2 H :=
  lazymatch goal with |- bind _ (fun r => bind _ (fun c => _)) => let r' := fresh r in let c' := fresh c in
    eapply (split_wp _ W2 _ _ _ H); [lia | intros r' c' ?R ?C ?E] end.
Ltac trunc_acc W2 H :=
  lazymatch goal with |- bind _ (fun r => _) => let r' := fresh r in
    eapply (trunc_wp _ W2 _ _ _ H); [lia | intros r' ?ctop ?R ?C ?E] end.
(* the accumulator at the end of a chain is a single word, copied to the last limb *)
Ltac top_word := lazymatch goal with A : acc _ _ 0 0 _ _ |- _ => apply acc_low in A; destruct A as [A _] end.
Ltac last_word :=
  lazymatch goal with A : acc _ ?c 0 0 _ _ |- bind ?c (fun x => _) => let l := fresh x in apply copy_wp; top_word; rename c into l end.
(* the summation at the end of a chain: the extracted limbs are in range and the equations left by the extractions add up *)
Ltac limbs_ok := repeat match goal with |- (_ <= _ < _) /\ _ => split; [assumption|] end; assumption.
(* the equations left by the extractions come into sight, as premises of the goal (of an [assert], for a summation) *)
Ltac reveal := repeat match goal with H : hidden _ |- _ => unhide H; revert H end.
Ltac forget_sums := repeat match goal with H : hidden (_ = _) |- _ => clear H end.

(* the wraps of Kernel/CSem.v as the macro lemmas want them *)
Lemma W32 : 2 <= 2^32.
Proof. discriminate. Qed.
Lemma W64 : 2 <= 2^64.
Proof. discriminate. Qed.
Lemma u32_mod x : u32 x = x mod 2^32.
Proof. reflexivity. Qed.
Lemma u64_mod x : u64 x = x mod 2^64.
Proof. reflexivity. Qed.
Lemma u32_small x : 0 <= x < 2^32 -> u32 x = x.
Proof. apply Z.mod_small. Qed.
Lemma u64_small x : 0 <= x < 2^64 -> u64 x = x.
Proof. apply Z.mod_small. Qed.
Lemma u32_flag x : 0 <= x <= 1 -> u32 x = x.
Proof. intros. apply Z.mod_small. lia. Qed.
Lemma u64_wide x : 0 <= x < 2^32 * 2^32 -> u64 x = x.
Proof. apply Z.mod_small. Qed.
Lemma u128_wide x : 0 <= x < 2^64 * 2^64 -> u128 x = x.
Proof. apply Z.mod_small. Qed.
Lemma u32_hi x : 0 <= x < 2^32 * 2^32 -> u32 (x / 2^32) = x / 2^32.
Proof. intros. apply Z.mod_small. split; [apply Z.div_pos | apply Z.div_lt_upper_bound]; lia. Qed.
