(* The carry-chain macros of Kernel/Carry.v for the 32-bit-limb scalar code (src/scalar_8x32_impl.h: a 96-bit accumulator
   (c0,c1,c2) of uint32_t, products in uint64_t), and the tactics that step through them. *)
From Coq Require Import ZArith Lia List Bool.
Require Import Kernel.CSem Kernel.Bind.
Require Export Kernel.Carry.
Local Open Scope Z_scope.

Definition muladd32_wp := muladd_wp (2^32) W32 u32 u64 (fun t => u32 (t / 2^32)) u32_mod u64_wide u32_hi (2^32) u32 u32_small W32.
Definition muladd_fast32_wp := muladd_fast_wp (2^32) W32 u32 u64 (fun t => u32 (t / 2^32)) u32_mod u64_wide u32_hi.
Definition muladd2_32_wp := muladd2_wp (2^32) W32 u32 u64 (fun t => u32 (t / 2^32)) u32_mod u64_wide u32_hi (2^32) u32 u32_small W32.
Definition sumadd32_wp := sumadd_wp (2^32) W32 u32 u32_mod (2^32) u32 u32 u32_small u32_flag W32.
Definition sumadd_fast32_wp := sumadd_fast_wp (2^32) W32 u32 u32_mod.

Ltac init32 := init_acc W32.
Ltac muladd32 := macro muladd32_wp.
Ltac muladd_fast32 := macro muladd_fast32_wp.
Ltac muladd2_32 := macro muladd2_32_wp.
Ltac sumadd32 := macro sumadd32_wp.
Ltac sumadd_fast32 := macro sumadd_fast32_wp.
Ltac extract32 := extract_acc W32.
Ltac extract_fast32 := extract_fast_acc W32.

(* the words of a 64-bit accumulator are taken with a mask *)
Lemma land_mask32 v : 0 <= v -> u32 (Z.land v 4294967295) = v mod 2^32.
Proof. intros. change 4294967295 with (Z.ones 32). rewrite Z.land_ones by lia. unfold u32. apply Z.mod_mod. lia. Qed.
Ltac split32 := split_acc W32 land_mask32.
Ltac trunc32 := trunc_acc W32 land_mask32.
