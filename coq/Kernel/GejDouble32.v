(* Proof ABOUT the generated point doubling in the 32-bit-limb configuration (Gen/gej_double32.v: secp256k1_gej_double of
   src/group_impl.h translated with USE_FORCE_WIDEMUL_INT64, its field operations kept as calls to the separately translated and proved
   10x26 limb functions - code that the default build and the test suite never compile).  Same statement as GejDouble.v: for ALL Jacobian
   inputs whose limbs are in the domain of the 10x26 multiplication (limbs below 2^30, top limb below 2^26: every magnitude up to 4) no limb
   operation leaves its proved domain, the result limbs are bounded, and the result is the doubling formula modulo p. *)
From Coq Require Import ZArith Lia List Bool Setoid Morphisms.
Require Import Kernel.Bind Kernel.Field10x26 Kernel.FieldWp32 Kernel.Cong.
Require Import Gen.fe10x26_mul_inner Gen.fe10x26_sqr_inner Gen.fe10x26_add Gen.fe10x26_negate Gen.fe10x26_half Gen.fe10x26_mul_int Gen.gej_double32.
Import ListNotations.
Local Open Scope Z_scope.
Local Opaque fe10x26_mul_inner_k fe10x26_sqr_inner_k fe10x26_add_k fe10x26_negate_k fe10x26_half_k fe10x26_mul_int_k.

(* limbs below m times the bounds the multiplication guarantees for its result (2^27 per limb, 2^23 for the top limb): magnitude m implies lim32 m *)
Definition lim32 (m a0 a1 a2 a3 a4 a5 a6 a7 a8 a9 : Z) : Prop :=
  0 <= a0 < m * 2^27 /\ 0 <= a1 < m * 2^27 /\ 0 <= a2 < m * 2^27 /\ 0 <= a3 < m * 2^27 /\ 0 <= a4 < m * 2^27 /\
  0 <= a5 < m * 2^27 /\ 0 <= a6 < m * 2^27 /\ 0 <= a7 < m * 2^27 /\ 0 <= a8 < m * 2^27 /\ 0 <= a9 < m * 2^23.
(* limbs of a field element of magnitude at most m *)
Definition mag32 (m a0 a1 a2 a3 a4 a5 a6 a7 a8 a9 : Z) : Prop :=
  0 <= a0 <= 2 * m * 67108863 /\ 0 <= a1 <= 2 * m * 67108863 /\ 0 <= a2 <= 2 * m * 67108863 /\ 0 <= a3 <= 2 * m * 67108863 /\ 0 <= a4 <= 2 * m * 67108863 /\
  0 <= a5 <= 2 * m * 67108863 /\ 0 <= a6 <= 2 * m * 67108863 /\ 0 <= a7 <= 2 * m * 67108863 /\ 0 <= a8 <= 2 * m * 67108863 /\ 0 <= a9 <= 2 * m * 4194303.
Lemma mag32_4_lim32_8 a0 a1 a2 a3 a4 a5 a6 a7 a8 a9 : mag32 4 a0 a1 a2 a3 a4 a5 a6 a7 a8 a9 -> lim32 8 a0 a1 a2 a3 a4 a5 a6 a7 a8 a9.
Proof. unfold mag32, lim32. intros [? [? [? [? [? [? [? [? [? ?]]]]]]]]]. repeat split; lia. Qed.

Lemma lim32_lt26 m a0 a1 a2 a3 a4 a5 a6 a7 a8 a9 :
  lim32 m a0 a1 a2 a3 a4 a5 a6 a7 a8 a9 -> lt26 (2 * m) (2 * m) a0 a1 a2 a3 a4 a5 a6 a7 a8 a9.
Proof. unfold lim32, lt26. lia. Qed.
Lemma lt26_lim32 m m' t a0 a1 a2 a3 a4 a5 a6 a7 a8 a9 :
  lt26 m' t a0 a1 a2 a3 a4 a5 a6 a7 a8 a9 -> m' <= 2 * m -> t <= 2 * m -> lim32 m a0 a1 a2 a3 a4 a5 a6 a7 a8 a9.
Proof. unfold lim32, lt26. lia. Qed.
Ltac lim32_of := eapply lt26_lim32; [eassumption | cmp | cmp].

Theorem gej_double32_correct inf x0 x1 x2 x3 x4 x5 x6 x7 x8 x9 y0 y1 y2 y3 y4 y5 y6 y7 y8 y9 z0 z1 z2 z3 z4 z5 z6 z7 z8 z9 :
  lim32 8 x0 x1 x2 x3 x4 x5 x6 x7 x8 x9 -> lim32 8 y0 y1 y2 y3 y4 y5 y6 y7 y8 y9 -> lim32 8 z0 z1 z2 z3 z4 z5 z6 z7 z8 z9 ->
  gej_double32_k inf x0 x1 x2 x3 x4 x5 x6 x7 x8 x9 y0 y1 y2 y3 y4 y5 y6 y7 y8 y9 z0 z1 z2 z3 z4 z5 z6 z7 z8 z9
    (fun rinf rx0 rx1 rx2 rx3 rx4 rx5 rx6 rx7 rx8 rx9 ry0 ry1 ry2 ry3 ry4 ry5 ry6 ry7 ry8 ry9 rz0 rz1 rz2 rz3 rz4 rz5 rz6 rz7 rz8 rz9 =>
      let X := val10 x0 x1 x2 x3 x4 x5 x6 x7 x8 x9 in let Y := val10 y0 y1 y2 y3 y4 y5 y6 y7 y8 y9 in let Z := val10 z0 z1 z2 z3 z4 z5 z6 z7 z8 z9 in
      rinf = inf /\
      (lim32 3 rx0 rx1 rx2 rx3 rx4 rx5 rx6 rx7 rx8 rx9 /\ mag32 3 ry0 ry1 ry2 ry3 ry4 ry5 ry6 ry7 ry8 ry9 /\ lim32 1 rz0 rz1 rz2 rz3 rz4 rz5 rz6 rz7 rz8 rz9) /\
      cong (val10 rz0 rz1 rz2 rz3 rz4 rz5 rz6 rz7 rz8 rz9) (Y * Z) /\
      cong (4 * val10 rx0 rx1 rx2 rx3 rx4 rx5 rx6 rx7 rx8 rx9) (9 * (X * X * X * X) - 8 * (X * (Y * Y))) /\
      cong (8 * val10 ry0 ry1 ry2 ry3 ry4 ry5 ry6 ry7 ry8 ry9) (- 27 * (X * X * X * X * X * X) + 36 * (X * X * X * (Y * Y)) - 8 * (Y * Y * Y * Y))).
Proof.
  intros Hx Hy Hz. apply lim32_lt26 in Hx, Hy, Hz.
  unfold gej_double32_k.
  apply bind_intro; intros rinf Hinf.
  mul_step. sqr_step. sqr_step. mul_int_step. half_step. negate_step. mul_step. sqr_step. add_step. add_step. sqr_step. add_step. mul_step. add_step.
  (* the last negation: the limbs of the result are at most those of 6p, which is magnitude 3 *)
  eapply negate26_wp; [eassumption | cmp | cmp | cmp | intros ? ? ? ? ? ? ? ? ? ? B Sh V6].
  split; [exact Hinf|]. split.
  { split; [lim32_of|]. split; [|lim32_of]. clear - B Sh. unfold lt26 in B. unfold mag32. lia. }
  exact (double_formula _ _ _ _ _ _ _ _ _ _ _ _ _ _ _ _ _ _ _ C C0 C1 V V0 V1 C2 C3 V2 V3 C4 V4 C5 V5 V6).
Qed.
