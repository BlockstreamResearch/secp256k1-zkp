(* Interval arithmetic for straight-line limb code.  [fits e e' K] says that the machine expression [e], in which
   every intermediate result is truncated to its C type, equals the plain integer expression [e'], and that
   0 <= e' <= K.  The tactic [fits] derives such a fact by recursion on the syntax of [e] from one hypothesis
   [0 <= x <= K] per variable, K a numeral, so that "this accumulator cannot wrap" is a comparison of two numerals
   and no step looks at more than the variables of one expression.  A truncation that the bounds do not rule out
   stays in e' as [mod]. *)
From Coq Require Import ZArith Lia.
Require Import Kernel.CSem Kernel.Bind.
Local Open Scope Z_scope.

Definition fits (e e' K : Z) : Prop := e = e' /\ 0 <= e' <= K.

Lemma fits_var x K : 0 <= x <= K -> fits x x K.
Proof. split; trivial. Qed.
Lemma fits_const e c : e = c -> (0 <=? c) = true -> fits e c c.
Proof. intros -> H. split; lia. Qed.
Lemma fits_add a a' A b b' B : fits a a' A -> fits b b' B -> fits (a + b) (a' + b') (A + B).
Proof. intros [-> ?] [-> ?]. split; lia. Qed.
Lemma fits_mul a a' A b b' B : fits a a' A -> fits b b' B -> fits (a * b) (a' * b') (A * B).
Proof. intros [-> ?] [-> ?]. split; [reflexivity|]. split; [apply Z.mul_nonneg_nonneg|apply Z.mul_le_mono_nonneg]; lia. Qed.
Lemma fits_div a a' A k : fits a a' A -> (0 <? k) = true -> fits (a / k) (a' / k) (A / k).
Proof. intros [-> ?] Hk. split; [reflexivity|]. split; [apply Z.div_pos|apply Z.div_le_mono]; lia. Qed.
(* truncation to a type of W values: none if the bound is below W *)
Lemma fits_small a a' A W : fits a a' A -> (A <? W) = true -> fits (a mod W) a' A.
Proof. intros [-> ?] HW. split; [apply Z.mod_small; lia|assumption]. Qed.
Lemma fits_mod a a' A W : fits a a' A -> (0 <? W) = true -> fits (a mod W) (a' mod W) (W - 1).
Proof. intros [-> ?] HW. split; [reflexivity|]. assert (0 <= a' mod W < W) by (apply Z.mod_pos_bound; lia). lia. Qed.
(* x & (2^n - 1), also of a value truncated to m >= n bits before *)
Lemma fits_land a a' A m n : fits a a' A -> m = Z.ones n -> (0 <=? n) = true -> fits (Z.land a m) (a' mod 2^n) m.
Proof.
  intros [-> ?] -> Hn. rewrite Z.land_ones by lia. split; [reflexivity|].
  assert (0 <= a' mod 2^n < 2^n) by (apply Z.mod_pos_bound; lia). rewrite Z.ones_equiv. lia.
Qed.
Lemma fits_land_mod a a' A w m n : fits a a' A -> m = Z.ones n -> (0 <=? n) = true -> (n <=? w) = true ->
  fits (Z.land (a mod 2^w) m) (a' mod 2^n) m.
Proof.
  intros Ha Hm Hn Hw. destruct (fits_land a a' A m n Ha Hm Hn) as [E B]. split; [|exact B].
  rewrite <- E, Hm, !Z.land_ones by lia.
  replace w with (n + (w - n)) by ring. rewrite Z.pow_add_r, Z.rem_mul_r, Z.mul_comm, Z.mod_add, Z.mod_mod by lia. reflexivity.
Qed.
(* (x << k) | t with t below 2^k *)
Lemma fits_lor x a' w X t t' T : fits x (a' * w) X -> fits t t' T -> (2^(Z.log2 w) =? w) = true -> (T <? w) = true ->
  fits (Z.lor x t) (a' * w + t') (X + T).
Proof.
  intros [-> Hx] [-> Ht] Hw HT. apply Z.eqb_eq in Hw. revert Hw Hx HT. generalize (Z.log2_nonneg w). generalize (Z.log2 w).
  intros k Hk <- Hx HT. split; [|lia].
  assert (0 <= a') by nia. rewrite <- Z.shiftl_mul_pow2 by lia.
  assert (Hl : Z.land (Z.shiftl a' k) t' = 0).
  { apply Z.bits_inj'; intros i Hi; rewrite Z.land_spec, Z.bits_0. destruct (Z.ltb_spec i k).
    - rewrite Z.shiftl_spec_low by lia. reflexivity.
    - rewrite <- (Z.mod_small t' (2^k)) by lia. rewrite Z.mod_pow2_bits_high by lia. apply Bool.andb_false_r. }
  rewrite <- Z.lxor_lor by exact Hl. symmetry. apply Z.add_nocarry_lxor. exact Hl.
Qed.

Lemma fits_eq x e e' K : fits e e' K -> x = e -> x = e'.
Proof. intros [-> _] ->. reflexivity. Qed.
Lemma fits_bound x e e' K : fits e e' K -> x = e -> 0 <= x <= K.
Proof. intros [-> ?] ->. assumption. Qed.
Lemma below x K N : 0 <= x <= K -> (K <? N) = true -> 0 <= x < N.
Proof. lia. Qed.
Lemma upto x N : 0 <= x < N -> 0 <= x <= N - 1.
Proof. lia. Qed.

Ltac has_var e := match e with context[?x] => is_var x end.
Ltac mask_bits m := eval vm_compute in (Z.log2 (m + 1)).
(* proves a goal [fits e ?e' ?K] by recursion on [e]; an expression without variables is evaluated *)
Ltac fits :=
  lazymatch goal with |- fits ?e _ _ =>
    tryif has_var e then
      lazymatch e with
      | _ + _ => eapply fits_add; fits
      | _ * _ => eapply fits_mul; fits
      | _ / _ => eapply fits_div; [fits | reflexivity]
      | Z.land (u64 _) ?m => let n := mask_bits m in eapply (fits_land_mod _ _ _ 64 m n); [fits | reflexivity ..]
      | Z.land _ ?m => let n := mask_bits m in eapply (fits_land _ _ _ m n); [fits | reflexivity ..]
      | Z.lor _ _ => eapply fits_lor; [fits | fits | reflexivity ..]
      | u32 _ => fits_trunc | u64 _ => fits_trunc | u128 _ => fits_trunc
      | _ => eapply fits_var; eassumption
      end
    else (eapply fits_const; [vm_compute; reflexivity | reflexivity])
  end
with fits_trunc := first [ eapply fits_small; [fits | reflexivity] | eapply fits_mod; [fits | reflexivity] ].

(* from the definition [Q : x = e] of a new variable: its value without truncations, and its interval *)
Ltac fits_def x Q :=
  lazymatch type of Q with _ = ?e =>
    let F := fresh "F" in eassert (F : fits e _ _) by fits;
    lazymatch type of F with fits _ ?e' ?K =>
      let K' := eval vm_compute in K in let E := fresh "E" in let B := fresh "B" in
      pose proof (fits_eq x e e' K F Q) as E; pose proof (fits_bound x e e' K F Q : 0 <= x <= K') as B; clear F Q end end.
(* one assignment of a chain [bind e (fun x => ...)] or [let x := e in ...] *)
Ltac fits_bind :=
  lazymatch goal with |- bind _ (fun x => _) =>
    let x' := fresh x in let Q := fresh "Q" in apply bind_intro; intros x' Q; cbv beta; fits_def x' Q end.
Ltac fits_let :=
  lazymatch goal with |- let x := ?e in _ =>
    let x' := fresh x in let Q := fresh "Q" in intro x'; pose proof (eq_refl : x' = e) as Q; clearbody x'; fits_def x' Q end.
(* the hypotheses [0 <= x < N] on the inputs become [0 <= x <= N - 1] with a numeral *)
Ltac upto_numerals :=
  repeat lazymatch goal with H : 0 <= ?x < ?N |- _ =>
    let K := eval vm_compute in (N - 1) in let B := fresh "B" in pose proof (upto x N H : 0 <= x <= K) as B; clear H end.
(* goals [0 <= x < N], N a numeral expression, from the interval of x *)
Ltac below_numeral := eapply below; [eassumption | reflexivity].

(* For the closing identity.  The code names y / k next to every use of y mod k; [x = ... y mod k ...] is restated with that
   name.  The quotients then stay variables of the identity, every other variable is replaced by its value. *)
Lemma mod_quot y k q : q = y / k -> (0 <? k) = true -> y mod k = y - k * q.
Proof. intros -> Hk. apply Z.mod_eq. intros ->. discriminate. Qed.
Ltac by_quotients :=
  repeat match goal with B : _ <= _ <= _ |- _ => clear B end;
  repeat match goal with Hq : ?q = ?y / ?k, Hm : context[?y mod ?k] |- _ => rewrite (mod_quot y k q Hq eq_refl) in Hm end;
  repeat match goal with Hq : _ = _ / _ |- _ => clear Hq end;
  subst.
