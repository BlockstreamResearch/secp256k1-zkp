(* Proofs ABOUT two more generated group functions whose field operations are calls to the proved limb functions:
   Gen/ge_set_gej_zinv.v (conversion of a Jacobian point to affine coordinates with a given inverse of z) and Gen/gej_rescale.v
   (rescaling of a Jacobian point by s: (x s^2, y s^3, z s)), both of src/group_impl.h.  For ALL inputs inside the domain of the
   field multiplication the result limbs are a magnitude-1 representation and the values are the specified products modulo p. *)
From Coq Require Import ZArith Lia List Bool Setoid Morphisms.
Require Import Kernel.Bind Kernel.Field5x52 Kernel.FieldWp Kernel.Cong Kernel.GejDouble.
Require Import Gen.fe_mul_inner Gen.fe_sqr_inner Gen.ge_set_gej_zinv Gen.gej_rescale Gen.ge_set_ge_zinv.
Import ListNotations.
Local Open Scope Z_scope.
Local Opaque fe_mul_inner_k fe_sqr_inner_k.
Ltac lim1 := eapply lt52_lim; [eassumption | cmp].

Theorem ge_set_gej_zinv_correct inf zi0 zi1 zi2 zi3 zi4 x0 x1 x2 x3 x4 y0 y1 y2 y3 y4 :
  lim 8 zi0 zi1 zi2 zi3 zi4 -> lim 8 x0 x1 x2 x3 x4 -> lim 8 y0 y1 y2 y3 y4 ->
  ge_set_gej_zinv_k inf zi0 zi1 zi2 zi3 zi4 x0 x1 x2 x3 x4 y0 y1 y2 y3 y4 (fun rinf rx0 rx1 rx2 rx3 rx4 ry0 ry1 ry2 ry3 ry4 =>
    let X := val5 x0 x1 x2 x3 x4 in let Y := val5 y0 y1 y2 y3 y4 in let ZI := val5 zi0 zi1 zi2 zi3 zi4 in
    rinf = inf /\ lim 1 rx0 rx1 rx2 rx3 rx4 /\ lim 1 ry0 ry1 ry2 ry3 ry4 /\
    cong (val5 rx0 rx1 rx2 rx3 rx4) (X * (ZI * ZI)) /\ cong (val5 ry0 ry1 ry2 ry3 ry4) (Y * (ZI * ZI * ZI))).
Proof.
  intros Hz Hx Hy. apply lim_lt52 in Hz, Hx, Hy.
  unfold ge_set_gej_zinv_k.
  sqr_step. mul_step. mul_step. mul_step. apply bind_intro; intros rinf Hinf.
  split; [exact Hinf|]. split; [lim1|]. split; [lim1|].
  split.
  - rewrite C1, C. reflexivity.
  - rewrite C2, C0, C. reflexivity.
Qed.

Theorem gej_rescale_correct s0 s1 s2 s3 s4 x0 x1 x2 x3 x4 y0 y1 y2 y3 y4 z0 z1 z2 z3 z4 :
  lim 8 s0 s1 s2 s3 s4 -> lim 8 x0 x1 x2 x3 x4 -> lim 8 y0 y1 y2 y3 y4 -> lim 8 z0 z1 z2 z3 z4 ->
  gej_rescale_k s0 s1 s2 s3 s4 x0 x1 x2 x3 x4 y0 y1 y2 y3 y4 z0 z1 z2 z3 z4 (fun rx0 rx1 rx2 rx3 rx4 ry0 ry1 ry2 ry3 ry4 rz0 rz1 rz2 rz3 rz4 =>
    let X := val5 x0 x1 x2 x3 x4 in let Y := val5 y0 y1 y2 y3 y4 in let Z := val5 z0 z1 z2 z3 z4 in let S := val5 s0 s1 s2 s3 s4 in
    lim 1 rx0 rx1 rx2 rx3 rx4 /\ lim 1 ry0 ry1 ry2 ry3 ry4 /\ lim 1 rz0 rz1 rz2 rz3 rz4 /\
    cong (val5 rx0 rx1 rx2 rx3 rx4) (X * (S * S)) /\ cong (val5 ry0 ry1 ry2 ry3 ry4) (Y * (S * S) * S) /\ cong (val5 rz0 rz1 rz2 rz3 rz4) (Z * S)).
Proof.
  intros Hs Hx Hy Hz. apply lim_lt52 in Hs, Hx, Hy, Hz.
  unfold gej_rescale_k.
  sqr_step. mul_step. mul_step. mul_step. mul_step.
  split; [lim1|]. split; [lim1|]. split; [lim1|].
  split; [|split].
  - rewrite C0, C. reflexivity.
  - rewrite C2, C1, C. reflexivity.
  - rewrite C3. reflexivity.
Qed.

(* Gen/ge_set_ge_zinv.v: the same conversion starting from an affine point of an isomorphic curve (secp256k1_ge_set_ge_zinv,
   used when the precomputed tables are brought back to the original curve): (x zi^2, y zi^3), infinity flag copied. *)
Theorem ge_set_ge_zinv_correct inf zi0 zi1 zi2 zi3 zi4 x0 x1 x2 x3 x4 y0 y1 y2 y3 y4 :
  lim 8 zi0 zi1 zi2 zi3 zi4 -> lim 8 x0 x1 x2 x3 x4 -> lim 8 y0 y1 y2 y3 y4 ->
  ge_set_ge_zinv_k inf zi0 zi1 zi2 zi3 zi4 x0 x1 x2 x3 x4 y0 y1 y2 y3 y4 (fun rinf rx0 rx1 rx2 rx3 rx4 ry0 ry1 ry2 ry3 ry4 =>
    let X := val5 x0 x1 x2 x3 x4 in let Y := val5 y0 y1 y2 y3 y4 in let ZI := val5 zi0 zi1 zi2 zi3 zi4 in
    rinf = inf /\ lim 1 rx0 rx1 rx2 rx3 rx4 /\ lim 1 ry0 ry1 ry2 ry3 ry4 /\
    cong (val5 rx0 rx1 rx2 rx3 rx4) (X * (ZI * ZI)) /\ cong (val5 ry0 ry1 ry2 ry3 ry4) (Y * (ZI * ZI * ZI))).
Proof.
  intros Hz Hx Hy. apply lim_lt52 in Hz, Hx, Hy.
  unfold ge_set_ge_zinv_k.
  sqr_step. mul_step. mul_step. mul_step. apply bind_intro; intros rinf Hinf.
  split; [exact Hinf|]. split; [lim1|]. split; [lim1|].
  split.
  - rewrite C1, C. reflexivity.
  - rewrite C2, C0, C. reflexivity.
Qed.
