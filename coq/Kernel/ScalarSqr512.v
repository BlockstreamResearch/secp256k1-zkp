(* Proof ABOUT the generated 256 -> 512 bit scalar squaring (Gen/scalar_sqr_512.v, portable C path of
   src/scalar_4x64_impl.h): the eight output limbs are the exact square for ALL limb values; in particular
   the doubled partial products (muladd2) never lose a carry, including the case where the doubled high word
   wraps to zero. *)
From Coq Require Import ZArith Lia List Bool.
Require Import Kernel.CSem Kernel.Bind Kernel.Carry64 Kernel.Scalar4x64 Kernel.ScalarMul512 Gen.scalar_sqr_512 Gen.scalar_sqr_512b.
Import ListNotations.
Local Open Scope Z_scope.
Local Opaque bind.

(* as for the product, through the translation in [bind] style (Gen/scalar_sqr_512b.v) *)
Theorem scalar_sqr_512_wp a0 a1 a2 a3 :
  0 <= a0 < 2^64 -> 0 <= a1 < 2^64 -> 0 <= a2 < 2^64 -> 0 <= a3 < 2^64 ->
  forall Q : Z -> Z -> Z -> Z -> Z -> Z -> Z -> Z -> Prop,
  (forall l0 l1 l2 l3 l4 l5 l6 l7,
    (0 <= l0 < 2^64 /\ 0 <= l1 < 2^64 /\ 0 <= l2 < 2^64 /\ 0 <= l3 < 2^64 /\ 0 <= l4 < 2^64 /\ 0 <= l5 < 2^64 /\ 0 <= l6 < 2^64 /\ 0 <= l7 < 2^64) /\
    val8 l0 l1 l2 l3 l4 l5 l6 l7 = val4 a0 a1 a2 a3 * val4 a0 a1 a2 a3 -> Q l0 l1 l2 l3 l4 l5 l6 l7) ->
  scalar_sqr_512_k a0 a1 a2 a3 Q.
Proof.
  intros Ha0 Ha1 Ha2 Ha3 Q HQ. hide HQ.
  timeout 60 (change (scalar_sqr_512b_k a0 a1 a2 a3 Q)). unfold scalar_sqr_512b_k.
  init64. muladd_fast64. extract_fast64.
  muladd2_64. extract64. muladd2_64. muladd64. extract64. do 2 muladd2_64. extract64.
  muladd2_64. muladd64. extract64. muladd2_64. extract64. muladd_fast64. extract_fast64.
  last_word. unhide HQ. apply HQ. clear HQ. split; [limbs_ok|]. unfold val8, val4. reveal. lia.
Qed.

Theorem scalar_sqr_512_correct a0 a1 a2 a3 :
  0 <= a0 < 2^64 -> 0 <= a1 < 2^64 -> 0 <= a2 < 2^64 -> 0 <= a3 < 2^64 ->
  scalar_sqr_512_k a0 a1 a2 a3 (fun l0 l1 l2 l3 l4 l5 l6 l7 =>
    (0 <= l0 < 2^64 /\ 0 <= l1 < 2^64 /\ 0 <= l2 < 2^64 /\ 0 <= l3 < 2^64 /\ 0 <= l4 < 2^64 /\ 0 <= l5 < 2^64 /\ 0 <= l6 < 2^64 /\ 0 <= l7 < 2^64) /\
    val8 l0 l1 l2 l3 l4 l5 l6 l7 = val4 a0 a1 a2 a3 * val4 a0 a1 a2 a3).
Proof. intros. apply scalar_sqr_512_wp; try assumption. intros l0 l1 l2 l3 l4 l5 l6 l7 HP. exact HP. Qed.
