(* The 5x52 field primitives in weakest-precondition form (an arbitrary continuation) over limb vectors bounded by a pair of
   multipliers, for composing the group functions whose field operations are translated as calls (Gen/gej_double.v,
   Gen/gej_add_ge.v, ...).  [lt52 m t] says: limbs below m full limbs, top limb below t full top limbs; the library's
   magnitude k implies [lt52 (2k) (2k)], the results of a multiplication satisfy [lt52 1 2].  Every side condition of a step
   is then a comparison of numerals instead of arithmetic over all limbs in sight. *)
From Coq Require Import ZArith Lia List Bool.
Require Import Kernel.CSem Kernel.Bind Kernel.CtPrimitives Kernel.Field5x52 Kernel.Field5x52Sqr Kernel.FieldNormalize2 Kernel.Cong.
Require Import Gen.fe_mul_inner Gen.fe_sqr_inner Gen.fe_impl_add Gen.fe_impl_negate_unchecked Gen.fe_impl_half
  Gen.fe_impl_mul_int_unchecked Gen.fe_impl_cmov Gen.fe_impl_normalizes_to_zero.
Import ListNotations.
Local Open Scope Z_scope.

Definition lt52 (m t a0 a1 a2 a3 a4 : Z) : Prop :=
  0 <= a0 < m * 2^52 /\ 0 <= a1 < m * 2^52 /\ 0 <= a2 < m * 2^52 /\ 0 <= a3 < m * 2^52 /\ 0 <= a4 < t * 2^48.

Lemma lt52_mono m t m' t' a0 a1 a2 a3 a4 : lt52 m t a0 a1 a2 a3 a4 -> m <= m' -> t <= t' -> lt52 m' t' a0 a1 a2 a3 a4.
Proof. unfold lt52. lia. Qed.

(* negation at magnitude bound m: every limb is subtracted from the corresponding limb of 2(m+1)p; exact whenever no limb underflows *)
Theorem fe_negate_wp a0 a1 a2 a3 a4 m (Q : Z -> Z -> Z -> Z -> Z -> Prop) :
  0 <= m <= 31 ->
  0 <= a0 <= 2 * (m + 1) * 4503595332402223 -> 0 <= a1 <= 2 * (m + 1) * 4503599627370495 -> 0 <= a2 <= 2 * (m + 1) * 4503599627370495 ->
  0 <= a3 <= 2 * (m + 1) * 4503599627370495 -> 0 <= a4 <= 2 * (m + 1) * 281474976710655 ->
  (forall r0 r1 r2 r3 r4,
     r0 = 2 * (m + 1) * 4503595332402223 - a0 -> r1 = 2 * (m + 1) * 4503599627370495 - a1 -> r2 = 2 * (m + 1) * 4503599627370495 - a2 ->
     r3 = 2 * (m + 1) * 4503599627370495 - a3 -> r4 = 2 * (m + 1) * 281474976710655 - a4 ->
     val5 r0 r1 r2 r3 r4 = 2 * (m + 1) * P256 - val5 a0 a1 a2 a3 a4 -> Q r0 r1 r2 r3 r4) ->
  fe_impl_negate_unchecked_k a0 a1 a2 a3 a4 m Q.
Proof.
  intros Hm H0 H1 H2 H3 H4 HQ. unfold fe_impl_negate_unchecked_k. cbv zeta.
  change (u64 (4503595332402223 * 2)) with 9007190664804446. change (u64 (4503599627370495 * 2)) with 9007199254740990.
  change (u64 (281474976710655 * 2)) with 562949953421310.
  unfold u64. rewrite (Z.mod_small (m + 1)) by lia.
  rewrite (Z.mod_small (9007190664804446 * (m + 1))), (Z.mod_small (9007199254740990 * (m + 1))), (Z.mod_small (562949953421310 * (m + 1))) by lia.
  rewrite !Z.mod_small by lia.
  apply HQ; try lia. unfold val5, P256. lia.
Qed.

(* halving with the limb bounds of the result: each limb is at most half of the input limb plus a full limb of p plus the bit
   that comes down from the next limb *)
Theorem fe_half_wp t0 t1 t2 t3 t4 (Q : Z -> Z -> Z -> Z -> Z -> Prop) :
  0 <= t0 < 2^58 -> 0 <= t1 < 2^58 -> 0 <= t2 < 2^58 -> 0 <= t3 < 2^58 -> 0 <= t4 < 2^54 ->
  (forall r0 r1 r2 r3 r4,
    (0 <= 2 * r0 <= t0 + 2^52 + 2^52 /\ 0 <= 2 * r1 <= t1 + 2^52 + 2^52 /\ 0 <= 2 * r2 <= t2 + 2^52 + 2^52 /\ 0 <= 2 * r3 <= t3 + 2^52 + 2^52 /\ 0 <= 2 * r4 <= t4 + 2^48) ->
    2 * val5 r0 r1 r2 r3 r4 = val5 t0 t1 t2 t3 t4 + (t0 mod 2) * P256 -> Q r0 r1 r2 r3 r4) ->
  fe_impl_half_k t0 t1 t2 t3 t4 Q.
Proof.
  intros H0 H1 H2 H3 H4 HQ. unfold fe_impl_half_k. cbv zeta. rewrite (land1 t0).
  assert (Hb : t0 mod 2 = 0 \/ t0 mod 2 = 1) by (clear; dlia).
  (* the mask is 52 ones when t0 is odd, so that p is added limb by limb *)
  assert (M : u64 (- (t0 mod 2)) / 2^12 = t0 mod 2 * (2^52 - 1) /\
              Z.land 4503595332402223 (t0 mod 2 * (2^52 - 1)) = t0 mod 2 * 4503595332402223 /\
              t0 mod 2 * (2^52 - 1) / 2^4 = t0 mod 2 * (2^48 - 1)) by (destruct Hb as [E|E]; rewrite E; repeat split).
  destruct M as (M1 & M2 & M3). rewrite M1, M2, M3. clear M1 M2 M3.
  assert (He : (t0 + t0 mod 2 * 4503595332402223) mod 2 = 0) by (clear; dlia).
  revert HQ He. generalize (t0 mod 2) Hb. clear Hb. intros b Hb HQ He.
  unfold u64. rewrite (Z.mod_small (t0 + _)), (Z.mod_small (t1 + _)), (Z.mod_small (t2 + _)), (Z.mod_small (t3 + _)), (Z.mod_small (t4 + _)) by lia.
  rewrite !(shr1_limb (2^64) 51) by dlia.
  apply HQ; [|unfold val5, P256]; dlia.
Qed.

Section Wp.
Variable Q : Z -> Z -> Z -> Z -> Z -> Prop.

Lemma mul52_wp a0 a1 a2 a3 a4 b0 b1 b2 b3 b4 :
  lt52 16 16 a0 a1 a2 a3 a4 -> lt52 16 16 b0 b1 b2 b3 b4 ->
  (forall r0 r1 r2 r3 r4, lt52 1 2 r0 r1 r2 r3 r4 ->
     cong (val5 r0 r1 r2 r3 r4) (val5 a0 a1 a2 a3 a4 * val5 b0 b1 b2 b3 b4) -> Q r0 r1 r2 r3 r4) ->
  fe_mul_inner_k a0 a1 a2 a3 a4 b0 b1 b2 b3 b4 Q.
Proof.
  unfold lt52. intros Ha Hb HQ. apply fe_mul_inner_wp; try lia.
  intros r0 r1 r2 r3 r4 [B C]. apply HQ; [lia | apply cong_of_mod, C].
Qed.

Lemma sqr52_wp a0 a1 a2 a3 a4 :
  lt52 16 16 a0 a1 a2 a3 a4 ->
  (forall r0 r1 r2 r3 r4, lt52 1 2 r0 r1 r2 r3 r4 ->
     cong (val5 r0 r1 r2 r3 r4) (val5 a0 a1 a2 a3 a4 * val5 a0 a1 a2 a3 a4) -> Q r0 r1 r2 r3 r4) ->
  fe_sqr_inner_k a0 a1 a2 a3 a4 Q.
Proof.
  unfold lt52. intros Ha HQ. apply fe_sqr_inner_wp; try lia.
  intros r0 r1 r2 r3 r4 [B C]. apply HQ; [lia | apply cong_of_mod, C].
Qed.

Lemma add52_wp m t m' t' r0 r1 r2 r3 r4 a0 a1 a2 a3 a4 :
  lt52 m t r0 r1 r2 r3 r4 -> lt52 m' t' a0 a1 a2 a3 a4 -> m + m' <= 4096 -> t + t' <= 65536 ->
  (forall s0 s1 s2 s3 s4, lt52 (m + m') (t + t') s0 s1 s2 s3 s4 ->
     val5 s0 s1 s2 s3 s4 = val5 r0 r1 r2 r3 r4 + val5 a0 a1 a2 a3 a4 -> Q s0 s1 s2 s3 s4) ->
  fe_impl_add_k r0 r1 r2 r3 r4 a0 a1 a2 a3 a4 Q.
Proof.
  unfold lt52. intros Hr Ha Hm Ht HQ. unfold fe_impl_add_k, u64. cbv zeta. rewrite !Z.mod_small by lia.
  apply HQ; [lia | unfold val5; ring].
Qed.

Lemma mul_int52_wp m t r0 r1 r2 r3 r4 a :
  lt52 m t r0 r1 r2 r3 r4 -> 0 < a <= 32 -> m * a <= 4096 -> t * a <= 65536 ->
  (forall s0 s1 s2 s3 s4, lt52 (m * a) (t * a) s0 s1 s2 s3 s4 ->
     val5 s0 s1 s2 s3 s4 = val5 r0 r1 r2 r3 r4 * a -> Q s0 s1 s2 s3 s4) ->
  fe_impl_mul_int_unchecked_k r0 r1 r2 r3 r4 a Q.
Proof.
  unfold lt52. intros Hr Ha Hm Ht HQ.
  assert (L : forall x k, 0 <= x < k -> 0 <= x * a < k * a) by (intros; nia).
  pose proof (L r0 _ (proj1 Hr)). pose proof (L r1 _ (proj1 (proj2 Hr))). pose proof (L r2 _ (proj1 (proj2 (proj2 Hr)))).
  pose proof (L r3 _ (proj1 (proj2 (proj2 (proj2 Hr))))). pose proof (L r4 _ (proj2 (proj2 (proj2 (proj2 Hr))))). clear L.
  unfold fe_impl_mul_int_unchecked_k, u64. cbv zeta. rewrite (Z.mod_small a) by lia.
  rewrite !Z.mod_small by lia. apply HQ; [lia | unfold val5; ring].
Qed.

Lemma negate52_wp mm tt a0 a1 a2 a3 a4 m :
  lt52 mm tt a0 a1 a2 a3 a4 -> 0 <= m <= 31 -> mm <= 2 * m + 1 -> tt <= 2 * m + 1 ->
  (forall r0 r1 r2 r3 r4, lt52 (2 * m + 2) (2 * m + 2) r0 r1 r2 r3 r4 ->
     r0 <= 2 * (m + 1) * 4503595332402223 /\ r1 <= 2 * (m + 1) * 4503599627370495 /\ r2 <= 2 * (m + 1) * 4503599627370495 /\
     r3 <= 2 * (m + 1) * 4503599627370495 /\ r4 <= 2 * (m + 1) * 281474976710655 ->
     val5 r0 r1 r2 r3 r4 = 2 * (m + 1) * P256 - val5 a0 a1 a2 a3 a4 -> Q r0 r1 r2 r3 r4) ->
  fe_impl_negate_unchecked_k a0 a1 a2 a3 a4 m Q.
Proof.
  unfold lt52. intros Ha Hm Hmm Htt HQ. apply fe_negate_wp; try lia.
  intros r0 r1 r2 r3 r4 -> -> -> -> -> V. apply HQ; [lia | lia | exact V].
Qed.

(* halving: the multipliers follow the library's rule (m >> 1) + 1 for the magnitude *)
Lemma half52_wp m t t0 t1 t2 t3 t4 :
  lt52 m t t0 t1 t2 t3 t4 -> m <= 64 -> t <= 64 ->
  (forall r0 r1 r2 r3 r4, lt52 ((m + 1) / 2 + 1) (t / 2 + 1) r0 r1 r2 r3 r4 ->
     2 * val5 r0 r1 r2 r3 r4 = val5 t0 t1 t2 t3 t4 + (t0 mod 2) * P256 -> Q r0 r1 r2 r3 r4) ->
  fe_impl_half_k t0 t1 t2 t3 t4 Q.
Proof.
  unfold lt52. intros Ht Hm Htt HQ. apply fe_half_wp; try lia.
  intros r0 r1 r2 r3 r4 B V. apply HQ; [dlia | exact V].
Qed.

Lemma cmov52_wp r0 r1 r2 r3 r4 a0 a1 a2 a3 a4 flag :
  lt52 4096 65536 r0 r1 r2 r3 r4 -> lt52 4096 65536 a0 a1 a2 a3 a4 ->
  (flag = 0 /\ Q r0 r1 r2 r3 r4) \/ (flag = 1 /\ Q a0 a1 a2 a3 a4) ->
  fe_impl_cmov_k r0 r1 r2 r3 r4 a0 a1 a2 a3 a4 flag Q.
Proof.
  unfold lt52. intros Hr Ha HQ. unfold fe_impl_cmov_k. cbv zeta.
  rewrite !select64 by (destruct HQ as [[-> _] | [-> _]]; auto; lia).
  destruct HQ as [[-> HQ] | [-> HQ]]; exact HQ.
Qed.

End Wp.

Lemma ntz52_wp (Q : Z -> Prop) r0 r1 r2 r3 r4 :
  lt52 64 64 r0 r1 r2 r3 r4 ->
  (forall ret, ret = (if (val5 r0 r1 r2 r3 r4) mod P256 =? 0 then 1 else 0) -> Q ret) ->
  fe_impl_normalizes_to_zero_k r0 r1 r2 r3 r4 Q.
Proof.
  unfold lt52. intros H HQ. rewrite fe_normalizes_to_zero_k_eq by lia. apply HQ. reflexivity.
Qed.

(* One step through the field operation at the head of the goal: the lemma of that operation is applied, [within] / [eassumption] find
   the [lt52] bounds of its operands in the context, [cmp] decides the conditions on the multipliers, which are numerals, by computation,
   and the limbs of the result come into the context with their [lt52] bound and their value: a congruence C, C0, C1, ... for products,
   an equation V, V0, V1, ... for the linear operations, numbered in program order.  The closing algebra of a caller refers to these
   names.  Kernel/FieldWp32.v has the same tactics for ten limbs, so that a group function has one script for both layouts. *)
Ltac cmp := repeat split; discriminate.
Ltac within := eapply lt52_mono; [eassumption | cmp | cmp].
Ltac mul_step := apply mul52_wp; [within | within | intros ? ? ? ? ? ? ?C].
Ltac sqr_step := apply sqr52_wp; [within | intros ? ? ? ? ? ? ?C].
Ltac add_step := eapply add52_wp; [eassumption | eassumption | cmp | cmp | intros ? ? ? ? ? ? ?V].
Ltac mul_int_step := eapply mul_int52_wp; [eassumption | cmp | cmp | cmp | intros ? ? ? ? ? ? ?V].
Ltac negate_step := eapply negate52_wp; [eassumption | cmp | cmp | cmp | intros ? ? ? ? ? ? _ ?V].
Ltac half_step := eapply half52_wp; [eassumption | cmp | cmp | intros ? ? ? ? ? ? ?V].
(* a whole-object copy: the five new names are replaced by what they stand for *)
Ltac copy_step := do 5 (apply bind_intro; intros ? ->).
Ltac cmov0_step := apply cmov52_wp; [within | within | left; split; [reflexivity|]].
Ltac cmov1_step := apply cmov52_wp; [within | within | right; split; [reflexivity|]].
Ltac ntz_step := apply ntz52_wp; [within | intros ? ?N].
