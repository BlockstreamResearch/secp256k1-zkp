(* Proof ABOUT the generated 512 -> 256 bit scalar reduction (Gen/scalar_reduce_512.v: the portable C path of
   secp256k1_scalar_reduce_512 in src/scalar_4x64_impl.h with the final secp256k1_scalar_reduce translated in
   place): for ALL eight 64-bit limbs the result is the canonical residue modulo the group order n:
   limbs in range, value < n, value = input mod n.  The three folding stages (512 -> 385 -> 258 -> 256 bits,
   using 2^256 = n + N_C) never lose a carry. *)
From Coq Require Import ZArith Lia List Bool.
Require Import Kernel.CSem Kernel.Bind Kernel.Carry64 Kernel.Scalar4x64 Kernel.ScalarMul512 Gen.scalar_check_overflow Gen.scalar_reduce_512.
Import ListNotations.
Local Open Scope Z_scope.
Local Opaque bind.

Definition NC0 := 4624529908474429119.
Definition NC1 := 4994812053365940164.
Lemma NC_ok : NC0 + NC1 * 2^64 + 2^128 = 2^256 - N256.
Proof. reflexivity. Qed.

(* the constants N_C_0, N_C_1 appear in the generated code as the C expressions ~N_0 + 1 and ~N_1; they are evaluated in small
   goals only, never in the chain *)
Ltac norm :=
  try change (u64 (18446744073709551615 - 13822214165235122497 + 1)) with 4624529908474429119;
  try change (18446744073709551615 - 13451932020343611451) with 4994812053365940164.

(* weakest-precondition form: every continuation Q that holds of all canonical residues holds of the generated code run with Q *)
Theorem scalar_reduce_512_wp l0 l1 l2 l3 l4 l5 l6 l7 :
  0 <= l0 < 2^64 -> 0 <= l1 < 2^64 -> 0 <= l2 < 2^64 -> 0 <= l3 < 2^64 ->
  0 <= l4 < 2^64 -> 0 <= l5 < 2^64 -> 0 <= l6 < 2^64 -> 0 <= l7 < 2^64 ->
  forall Q : Z -> Z -> Z -> Z -> Prop,
  (forall r0 r1 r2 r3, (0 <= r0 < 2^64 /\ 0 <= r1 < 2^64 /\ 0 <= r2 < 2^64 /\ 0 <= r3 < 2^64) /\
    val4 r0 r1 r2 r3 = val8 l0 l1 l2 l3 l4 l5 l6 l7 mod N256 -> Q r0 r1 r2 r3) ->
  scalar_reduce_512_k l0 l1 l2 l3 l4 l5 l6 l7 Q.
Proof.
  intros H0 H1 H2 H3 H4 H5 H6 H7 Q HQ. hide HQ.
  unfold scalar_reduce_512_k.
  do 4 copy.
  (* m[0..6] = l[0..3] + l[4..7] * N_C *)
  init64. muladd_fast64. extract_fast64.
  sumadd_fast64. do 2 muladd64w. extract64.
  sumadd64w. do 2 muladd64w. sumadd64w. extract64.
  sumadd64w. do 2 muladd64w. sumadd64w. extract64.
  muladd64w. sumadd64w. extract64.
  sumadd_fast64. extract_fast64.
  top_word. bintro. match goal with Q : ?m = u32 ?c |- _ => rewrite u32_small in Q by lia; subst c end.
  (* p[0..4] = m[0..3] + m[4..6] * N_C *)
  init64. muladd_fast64. extract_fast64.
  sumadd_fast64. do 2 muladd64w. extract64.
  sumadd64w. do 2 muladd64w. sumadd64w. extract64.
  sumadd_fast64. muladd_fast64. sumadd_fast64. extract_fast64.
  top_word.
  bintro. match goal with Q : ?p = u32 _ |- _ => rewrite u64_small, u32_small in Q by lia; assert (P4 : 0 <= p < 5) by lia; hide Q end.
  assert (SM : val4 m0 m1 m2 m3 + (m4 + m5 * 2^64 + m6 * 2^128) * 2^256 = val4 l0 l1 l2 l3 + val4 l4 l5 l6 l7 * (2^256 - N256))
    by (rewrite <- NC_ok; unfold NC0, NC1, val4; reveal; norm; lia).
  assert (SP : val4 p0 p1 p2 p3 + p4 * 2^256 = val4 m0 m1 m2 m3 + (m4 + m5 * 2^64 + m6 * 2^128) * (2^256 - N256))
    by (rewrite <- NC_ok; unfold NC0, NC1, val4; reveal; norm; lia).
  forget_sums.
  (* r[0..3] = p[0..3] + p4 * N_C, with a carry c out of 256 bits *)
  copy. wide (2^128). split64. do 2 (do 2 wide (2^128); split64). wide (2^128). split64.
  assert (A1 : val4 r_d0 r_d1 r_d2 r_d3 + c * 2^256 = val4 p0 p1 p2 p3 + p4 * (2^256 - N256)) by (rewrite <- NC_ok; unfold NC0, NC1, val4; reveal; norm; lia).
  assert (BP : 0 <= val4 p0 p1 p2 p3 < 2^256) by (apply val4_range; assumption).
  assert (BR : 0 <= val4 r_d0 r_d1 r_d2 r_d3 < 2^256) by (apply val4_range; assumption).
  assert (A3 : 0 <= c <= 1) by (clear - A1 BP BR P4; unfold N256 in A1; lia).
  forget_sums.
  (* the final reduction adds N_C once for the carry and once if the value is at least n *)
  flag_step (wrap_wp (2^32)) scalar_check_overflow_flag (N256 <=? val4 r_d0 r_d1 r_d2 r_d3).
  copy. wide (2^128). split64. do 2 (do 2 wide (2^128); split64). wide (2^128). trunc64.
  apply bind_intro; intros ? _. unhide HQ. apply HQ. clear HQ. split; [limbs_ok|].
  assert (A2 : val4 r_d4 r_d5 r_d6 r_d7 + ctop * 2^256 = val4 r_d0 r_d1 r_d2 r_d3 + (c + flag) * (2^256 - N256))
    by (rewrite <- NC_ok; unfold NC0, NC1, val4; reveal; norm; lia).
  eapply reduce_folds; [apply val8_split | exact SM | exact SP | exact A1 | exact A2 | reflexivity | try (apply val4_range; assumption) ..]; lia.
Qed.

Theorem scalar_reduce_512_correct l0 l1 l2 l3 l4 l5 l6 l7 :
  0 <= l0 < 2^64 -> 0 <= l1 < 2^64 -> 0 <= l2 < 2^64 -> 0 <= l3 < 2^64 ->
  0 <= l4 < 2^64 -> 0 <= l5 < 2^64 -> 0 <= l6 < 2^64 -> 0 <= l7 < 2^64 ->
  scalar_reduce_512_k l0 l1 l2 l3 l4 l5 l6 l7 (fun r0 r1 r2 r3 =>
    (0 <= r0 < 2^64 /\ 0 <= r1 < 2^64 /\ 0 <= r2 < 2^64 /\ 0 <= r3 < 2^64) /\
    val4 r0 r1 r2 r3 = val8 l0 l1 l2 l3 l4 l5 l6 l7 mod N256).
Proof.
  intros. apply scalar_reduce_512_wp; try assumption. intros r0 r1 r2 r3 HP. exact HP.
Qed.
