(* Proofs ABOUT the 10x26 zero test and conditional move (Gen/fe10x26_ntz.v, Gen/fe10x26_cmov.v: secp256k1_fe_impl_normalizes_to_zero and
   secp256k1_fe_impl_cmov of src/field_10x26_impl.h, translated with USE_FORCE_WIDEMUL_INT64): for ALL limb values up to magnitude 16
   the zero test returns 1 exactly when the value is 0 modulo p; the conditional move selects exactly. *)
From Coq Require Import ZArith Lia List Bool.
Require Import Kernel.CSem Kernel.CtPrimitives Kernel.Field5x52 Kernel.FieldNormalize Kernel.Field10x26 Kernel.Field10x26Wp Gen.fe10x26_ntz Gen.fe10x26_cmov.
Import ListNotations.
Local Open Scope Z_scope.

Definition ones26 := 67108863.

(* nine limbs below 2^26 and a top limb are determined by the value *)
Lemma val10_inj t0 t1 t2 t3 t4 t5 t6 t7 t8 t9 u0 u1 u2 u3 u4 u5 u6 u7 u8 u9 :
  0 <= t0 < 2^26 -> 0 <= t1 < 2^26 -> 0 <= t2 < 2^26 -> 0 <= t3 < 2^26 -> 0 <= t4 < 2^26 -> 0 <= t5 < 2^26 -> 0 <= t6 < 2^26 -> 0 <= t7 < 2^26 -> 0 <= t8 < 2^26 ->
  0 <= u0 < 2^26 -> 0 <= u1 < 2^26 -> 0 <= u2 < 2^26 -> 0 <= u3 < 2^26 -> 0 <= u4 < 2^26 -> 0 <= u5 < 2^26 -> 0 <= u6 < 2^26 -> 0 <= u7 < 2^26 -> 0 <= u8 < 2^26 ->
  val10 t0 t1 t2 t3 t4 t5 t6 t7 t8 t9 = val10 u0 u1 u2 u3 u4 u5 u6 u7 u8 u9 ->
  t0 = u0 /\ t1 = u1 /\ t2 = u2 /\ t3 = u3 /\ t4 = u4 /\ t5 = u5 /\ t6 = u6 /\ t7 = u7 /\ t8 = u8 /\ t9 = u9.
Proof.
  intros T0 T1 T2 T3 T4 T5 T6 T7 T8 U0 U1 U2 U3 U4 U5 U6 U7 U8 E.
  assert (N : forall a b c d e f g h i j, val10 a b c d e f g h i j =
    a + (b + (c + (d + (e + (f + (g + (h + (i + j * 2^26) * 2^26) * 2^26) * 2^26) * 2^26) * 2^26) * 2^26) * 2^26) * 2^26)
    by (intros; unfold val10; ring).
  rewrite !N in E. do 9 (apply radix_inj in E as [-> E]; [|assumption..]). subst. repeat split.
Qed.

(* One carry pass in 32-bit words (FieldNormalize.carry_pass with ten limbs of 26 bits) *)
Lemma carry_pass32 B D a0 a1 a2 a3 a4 a5 a6 a7 a8 a9 :
  B + D <= D * 2^26 -> D * 2^26 <= 2^32 -> 0 <= a0 < D * 2^26 -> 0 <= a1 < B -> 0 <= a2 < B -> 0 <= a3 < B -> 0 <= a4 < B -> 0 <= a5 < B ->
  0 <= a6 < B -> 0 <= a7 < B -> 0 <= a8 < B -> 0 <= a9 < B ->
  exists c1 c2 c3 c4 c5 c6 c7 c8 c9,
    u32 (a1 + a0 / 2^26) = c1 /\ u32 (a2 + c1 / 2^26) = c2 /\ u32 (a3 + c2 / 2^26) = c3 /\ u32 (a4 + c3 / 2^26) = c4 /\ u32 (a5 + c4 / 2^26) = c5 /\
    u32 (a6 + c5 / 2^26) = c6 /\ u32 (a7 + c6 / 2^26) = c7 /\ u32 (a8 + c7 / 2^26) = c8 /\ u32 (a9 + c8 / 2^26) = c9 /\
    a9 <= c9 < a9 + D /\
    val10 (a0 mod 2^26) (c1 mod 2^26) (c2 mod 2^26) (c3 mod 2^26) (c4 mod 2^26) (c5 mod 2^26) (c6 mod 2^26) (c7 mod 2^26) (c8 mod 2^26) c9
    = val10 a0 a1 a2 a3 a4 a5 a6 a7 a8 a9.
Proof.
  intros HB HD H0 H1 H2 H3 H4 H5 H6 H7 H8 H9.
  assert (S : forall a b, 0 <= a < D * 2^26 -> 0 <= b < B -> u32 (b + a / 2^26) = b + a / 2^26 /\ 0 <= b + a / 2^26 < D * 2^26)
    by (intros; unfold u32; dlia).
  destruct (S a0 a1 H0 H1) as [E1 B1]. destruct (S _ a2 B1 H2) as [E2 B2]. destruct (S _ a3 B2 H3) as [E3 B3].
  destruct (S _ a4 B3 H4) as [E4 B4]. destruct (S _ a5 B4 H5) as [E5 B5]. destruct (S _ a6 B5 H6) as [E6 B6].
  destruct (S _ a7 B6 H7) as [E7 B7]. destruct (S _ a8 B7 H8) as [E8 B8]. destruct (S _ a9 B8 H9) as [E9 _].
  eexists _, _, _, _, _, _, _, _, _. do 9 (split; [eassumption|]). split.
  - clear - B8. dlia.
  - clear. unfold val10. dlia.
Qed.

(* the two tests on the limbs of a value below 2p, as in FieldNormalize2 *)
Lemma zero_test10 t0 t1 t2 t3 t4 t5 t6 t7 t8 t9 :
  0 <= t0 < 2^26 -> 0 <= t1 < 2^26 -> 0 <= t2 < 2^26 -> 0 <= t3 < 2^26 -> 0 <= t4 < 2^26 -> 0 <= t5 < 2^26 -> 0 <= t6 < 2^26 -> 0 <= t7 < 2^26 -> 0 <= t8 < 2^26 ->
  (Z.lor (Z.lor (Z.lor (Z.lor (Z.lor (Z.lor (Z.lor (Z.lor (Z.lor t0 t1) t2) t3) t4) t5) t6) t7) t8) t9 =? 0)
  = (val10 t0 t1 t2 t3 t4 t5 t6 t7 t8 t9 =? 0).
Proof.
  intros T0 T1 T2 T3 T4 T5 T6 T7 T8. rewrite !lor_eq0b. apply eq_true_iff_eq. rewrite !andb_true_iff, !Z.eqb_eq. split.
  - intros [[[[[[[[[-> ->] ->] ->] ->] ->] ->] ->] ->] ->]. reflexivity.
  - intros E. apply (val10_inj _ _ _ _ _ _ _ _ _ _ 0 0 0 0 0 0 0 0 0 0) in E; try assumption; try (split; discriminate || reflexivity). tauto.
Qed.

Lemma p_test10 t0 t1 t2 t3 t4 t5 t6 t7 t8 t9 :
  0 <= t0 < 2^26 -> 0 <= t1 < 2^26 -> 0 <= t2 < 2^26 -> 0 <= t3 < 2^26 -> 0 <= t4 < 2^26 -> 0 <= t5 < 2^26 -> 0 <= t6 < 2^26 -> 0 <= t7 < 2^26 -> 0 <= t8 < 2^26 ->
  0 <= t9 < 2^26 ->
  (Z.land (Z.land (Z.land (Z.land (Z.land (Z.land (Z.land (Z.land (Z.land (u32 (Z.lxor t0 976)) (Z.lxor t1 64)) t2) t3) t4) t5) t6) t7) t8)
          (Z.lxor t9 62914560) =? 67108863)
  = (val10 t0 t1 t2 t3 t4 t5 t6 t7 t8 t9 =? P256).
Proof.
  intros T0 T1 T2 T3 T4 T5 T6 T7 T8 T9.
  assert (R0 : 0 <= Z.lxor t0 976 < 2^26) by (apply lxor_range; [assumption | split; [discriminate | reflexivity]]).
  unfold u32. rewrite (Z.mod_small (Z.lxor t0 976)) by (clear - R0; lia).
  apply eq_true_iff_eq.
  rewrite !Z.eqb_eq, !(land_eq_ones _ _ 26), 3!lxor_eq_iff, <- P256_val10
    by (repeat first [apply land_range | apply lxor_range]; assumption || (split; discriminate || reflexivity)).
  split.
  - intros [[[[[[[[[-> ->] ->] ->] ->] ->] ->] ->] ->] ->]. reflexivity.
  - intros E. apply val10_inj in E; try assumption; try (split; discriminate || reflexivity). tauto.
Qed.

(* for any continuation, so that callers that pass one need no conversion through the let chain *)
Lemma fe10x26_ntz_k_eq {T} (k : Z -> T) r0 r1 r2 r3 r4 r5 r6 r7 r8 r9 :
  0 <= r0 < 2^31 -> 0 <= r1 < 2^31 -> 0 <= r2 < 2^31 -> 0 <= r3 < 2^31 -> 0 <= r4 < 2^31 -> 0 <= r5 < 2^31 -> 0 <= r6 < 2^31 -> 0 <= r7 < 2^31 -> 0 <= r8 < 2^31 -> 0 <= r9 < 2^27 ->
  fe10x26_ntz_k r0 r1 r2 r3 r4 r5 r6 r7 r8 r9 k = k (if (val10 r0 r1 r2 r3 r4 r5 r6 r7 r8 r9) mod P256 =? 0 then 1 else 0).
Proof.
  intros H0 H1 H2 H3 H4 H5 H6 H7 H8 H9.
  (* the bits above 2^256 are folded into the two low limbs, times 977 and times 2^6 *)
  assert (E0 : u32 (r0 + u64 (r9 / 2^22 * 977)) = r0 + r9 / 2^22 * 977 /\ 0 <= r0 + r9 / 2^22 * 977 < 2^6 * 2^26)
    by (clear - H0 H9; unfold u32, u64; dlia).
  assert (E1 : u32 (r1 + u32 (r9 / 2^22 * 2^6)) = r1 + r9 / 2^22 * 2^6 /\ 0 <= r1 + r9 / 2^22 * 2^6 < 2^31 + 2^11)
    by (clear - H1 H9; unfold u32; dlia).
  destruct E0 as [E0 B0]. destruct E1 as [E1 B1].
  destruct (carry_pass32 (2^31 + 2^11) (2^6) _ _ r2 r3 r4 r5 r6 r7 r8 (r9 mod 2^22) ltac:(discriminate) ltac:(discriminate) B0 B1)
    as (s1 & s2 & s3 & s4 & s5 & s6 & s7 & s8 & t9 & F1 & F2 & F3 & F4 & F5 & F6 & F7 & F8 & F9 & B9 & V); try (dlia).
  cbv beta delta [fe10x26_ntz_k]. cbv zeta.
  rewrite land22, E0, E1, F1, F2, F3, F4, F5, F6, F7, F8, F9, !land26.
  assert (P : 0 < 2^26) by reflexivity.
  pose proof (Z.mod_pos_bound (r0 + r9 / 2^22 * 977) _ P) as T0. pose proof (Z.mod_pos_bound s1 _ P) as T1.
  pose proof (Z.mod_pos_bound s2 _ P) as T2. pose proof (Z.mod_pos_bound s3 _ P) as T3. pose proof (Z.mod_pos_bound s4 _ P) as T4.
  pose proof (Z.mod_pos_bound s5 _ P) as T5. pose proof (Z.mod_pos_bound s6 _ P) as T6. pose proof (Z.mod_pos_bound s7 _ P) as T7.
  pose proof (Z.mod_pos_bound s8 _ P) as T8.
  revert T0 T1 T2 T3 T4 T5 T6 T7 T8 V.
  generalize ((r0 + r9 / 2^22 * 977) mod 2^26) (s1 mod 2^26) (s2 mod 2^26) (s3 mod 2^26) (s4 mod 2^26) (s5 mod 2^26) (s6 mod 2^26)
    (s7 mod 2^26) (s8 mod 2^26).
  intros t0 t1 t2 t3 t4 t5 t6 t7 t8 T0 T1 T2 T3 T4 T5 T6 T7 T8 V.
  assert (T9 : 0 <= t9 < 2^22 + 2^7) by (clear - B9 H9; dlia).
  rewrite zero_test10, p_test10 by (assumption || (clear - T9; lia)).
  rewrite (mod_eq0_folded (val10 r0 r1 r2 r3 r4 r5 r6 r7 r8 r9) (val10 t0 t1 t2 t3 t4 t5 t6 t7 t8 t9) (r9 / 2^22) P256 eq_refl).
  - destruct (_ =? 0), (_ =? P256); reflexivity.
  - rewrite V. clear. rewrite <- P256_val10. unfold val10. dlia.
  - clear - T0 T1 T2 T3 T4 T5 T6 T7 T8 T9. rewrite <- P256_val10. unfold val10. lia.
Qed.

Theorem fe10x26_ntz_correct r0 r1 r2 r3 r4 r5 r6 r7 r8 r9 :
  0 <= r0 < 2^31 -> 0 <= r1 < 2^31 -> 0 <= r2 < 2^31 -> 0 <= r3 < 2^31 -> 0 <= r4 < 2^31 -> 0 <= r5 < 2^31 -> 0 <= r6 < 2^31 -> 0 <= r7 < 2^31 -> 0 <= r8 < 2^31 -> 0 <= r9 < 2^27 ->
  fe10x26_ntz r0 r1 r2 r3 r4 r5 r6 r7 r8 r9 = if (val10 r0 r1 r2 r3 r4 r5 r6 r7 r8 r9) mod P256 =? 0 then 1 else 0.
Proof. exact (fe10x26_ntz_k_eq (fun ret => ret) r0 r1 r2 r3 r4 r5 r6 r7 r8 r9). Qed.

Theorem fe10x26_ntz_wp r0 r1 r2 r3 r4 r5 r6 r7 r8 r9 (Q : Z -> Prop) :
  (0 <= r0 < 2^31 /\ 0 <= r1 < 2^31 /\ 0 <= r2 < 2^31 /\ 0 <= r3 < 2^31 /\ 0 <= r4 < 2^31 /\ 0 <= r5 < 2^31 /\ 0 <= r6 < 2^31 /\ 0 <= r7 < 2^31 /\ 0 <= r8 < 2^31 /\ 0 <= r9 < 2^27) ->
  (forall ret, ret = (if (val10 r0 r1 r2 r3 r4 r5 r6 r7 r8 r9) mod P256 =? 0 then 1 else 0) -> Q ret) ->
  fe10x26_ntz_k r0 r1 r2 r3 r4 r5 r6 r7 r8 r9 Q.
Proof.
  intros [H0 [H1 [H2 [H3 [H4 [H5 [H6 [H7 [H8 H9]]]]]]]]] HQ. rewrite fe10x26_ntz_k_eq by assumption. apply HQ. reflexivity.
Qed.

Theorem fe10x26_cmov_wp r0 r1 r2 r3 r4 r5 r6 r7 r8 r9 a0 a1 a2 a3 a4 a5 a6 a7 a8 a9 flag (Q : Z -> Z -> Z -> Z -> Z -> Z -> Z -> Z -> Z -> Z -> Prop) :
  (0 <= r0 < 2^32 /\ 0 <= r1 < 2^32 /\ 0 <= r2 < 2^32 /\ 0 <= r3 < 2^32 /\ 0 <= r4 < 2^32 /\ 0 <= r5 < 2^32 /\ 0 <= r6 < 2^32 /\ 0 <= r7 < 2^32 /\ 0 <= r8 < 2^32 /\ 0 <= r9 < 2^32 /\
   0 <= a0 < 2^32 /\ 0 <= a1 < 2^32 /\ 0 <= a2 < 2^32 /\ 0 <= a3 < 2^32 /\ 0 <= a4 < 2^32 /\ 0 <= a5 < 2^32 /\ 0 <= a6 < 2^32 /\ 0 <= a7 < 2^32 /\ 0 <= a8 < 2^32 /\ 0 <= a9 < 2^32) ->
  (flag = 0 /\ Q r0 r1 r2 r3 r4 r5 r6 r7 r8 r9) \/ (flag = 1 /\ Q a0 a1 a2 a3 a4 a5 a6 a7 a8 a9) ->
  fe10x26_cmov_k r0 r1 r2 r3 r4 r5 r6 r7 r8 r9 a0 a1 a2 a3 a4 a5 a6 a7 a8 a9 flag Q.
Proof.
  intros [? [? [? [? [? [? [? [? [? [? [? [? [? [? [? [? [? [? [? ?]]]]]]]]]]]]]]]]]]] [[-> HQ] | [-> HQ]];
    unfold fe10x26_cmov_k; cbv zeta; rewrite !select32 by auto; exact HQ.
Qed.
