(* The 10x26 field primitives (the code 32-bit targets compile; translated with USE_FORCE_WIDEMUL_INT64) in weakest-precondition form,
   for composing callers that are translated as calls (Gen/gej_double32.v): addition, multiplication by a small constant, negation,
   halving.  The multiplication and squaring WP theorems are in Field10x26.v. *)
From Coq Require Import ZArith Lia List Bool.
Require Import Kernel.CSem Kernel.Bits Kernel.Field5x52 Kernel.Field10x26.
Require Import Gen.fe10x26_add Gen.fe10x26_negate Gen.fe10x26_half Gen.fe10x26_mul_int.
Import ListNotations.
Local Open Scope Z_scope.

Lemma P256_val10 : val10 67107887 67108799 67108863 67108863 67108863 67108863 67108863 67108863 67108863 4194303 = P256.
Proof. reflexivity. Qed.

Theorem fe10x26_add_wp r0 r1 r2 r3 r4 r5 r6 r7 r8 r9 a0 a1 a2 a3 a4 a5 a6 a7 a8 a9 (Q : Z -> Z -> Z -> Z -> Z -> Z -> Z -> Z -> Z -> Z -> Prop) :
  0 <= r0 -> 0 <= r1 -> 0 <= r2 -> 0 <= r3 -> 0 <= r4 -> 0 <= r5 -> 0 <= r6 -> 0 <= r7 -> 0 <= r8 -> 0 <= r9 ->
  0 <= a0 -> 0 <= a1 -> 0 <= a2 -> 0 <= a3 -> 0 <= a4 -> 0 <= a5 -> 0 <= a6 -> 0 <= a7 -> 0 <= a8 -> 0 <= a9 ->
  r0 + a0 < 2^32 -> r1 + a1 < 2^32 -> r2 + a2 < 2^32 -> r3 + a3 < 2^32 -> r4 + a4 < 2^32 -> r5 + a5 < 2^32 -> r6 + a6 < 2^32 -> r7 + a7 < 2^32 -> r8 + a8 < 2^32 -> r9 + a9 < 2^32 ->
  (forall s0 s1 s2 s3 s4 s5 s6 s7 s8 s9, s0 = r0 + a0 -> s1 = r1 + a1 -> s2 = r2 + a2 -> s3 = r3 + a3 -> s4 = r4 + a4 -> s5 = r5 + a5 -> s6 = r6 + a6 -> s7 = r7 + a7 -> s8 = r8 + a8 -> s9 = r9 + a9 ->
     val10 s0 s1 s2 s3 s4 s5 s6 s7 s8 s9 = val10 r0 r1 r2 r3 r4 r5 r6 r7 r8 r9 + val10 a0 a1 a2 a3 a4 a5 a6 a7 a8 a9 -> Q s0 s1 s2 s3 s4 s5 s6 s7 s8 s9) ->
  fe10x26_add_k r0 r1 r2 r3 r4 r5 r6 r7 r8 r9 a0 a1 a2 a3 a4 a5 a6 a7 a8 a9 Q.
Proof.
  intros. unfold fe10x26_add_k, u32. cbv zeta. rewrite !Z.mod_small by lia.
  match goal with HQ : forall s0 : Z, _ |- _ => apply HQ end; try reflexivity. unfold val10. ring.
Qed.

Theorem fe10x26_mul_int_wp r0 r1 r2 r3 r4 r5 r6 r7 r8 r9 a (Q : Z -> Z -> Z -> Z -> Z -> Z -> Z -> Z -> Z -> Z -> Prop) :
  0 <= a < 2^31 -> 0 <= r0 -> 0 <= r1 -> 0 <= r2 -> 0 <= r3 -> 0 <= r4 -> 0 <= r5 -> 0 <= r6 -> 0 <= r7 -> 0 <= r8 -> 0 <= r9 ->
  r0 * a < 2^32 -> r1 * a < 2^32 -> r2 * a < 2^32 -> r3 * a < 2^32 -> r4 * a < 2^32 -> r5 * a < 2^32 -> r6 * a < 2^32 -> r7 * a < 2^32 -> r8 * a < 2^32 -> r9 * a < 2^32 ->
  (forall s0 s1 s2 s3 s4 s5 s6 s7 s8 s9, s0 = r0 * a -> s1 = r1 * a -> s2 = r2 * a -> s3 = r3 * a -> s4 = r4 * a -> s5 = r5 * a -> s6 = r6 * a -> s7 = r7 * a -> s8 = r8 * a -> s9 = r9 * a ->
     val10 s0 s1 s2 s3 s4 s5 s6 s7 s8 s9 = val10 r0 r1 r2 r3 r4 r5 r6 r7 r8 r9 * a -> Q s0 s1 s2 s3 s4 s5 s6 s7 s8 s9) ->
  fe10x26_mul_int_k r0 r1 r2 r3 r4 r5 r6 r7 r8 r9 a Q.
Proof.
  intros Ha ? ? ? ? ? ? ? ? ? ? ? ? ? ? ? ? ? ? ? ? HQ. unfold fe10x26_mul_int_k. cbv zeta.
  unfold u32. rewrite (Z.mod_small a) by lia.
  rewrite !Z.mod_small by (split; [apply Z.mul_nonneg_nonneg; lia | assumption]).
  apply HQ; try reflexivity. unfold val10. ring.
Qed.

(* negation at magnitude bound m: every limb is subtracted from the corresponding limb of 2(m+1)p; exact whenever no limb underflows *)
Theorem fe10x26_negate_wp a0 a1 a2 a3 a4 a5 a6 a7 a8 a9 m (Q : Z -> Z -> Z -> Z -> Z -> Z -> Z -> Z -> Z -> Z -> Prop) :
  0 <= m <= 31 ->
  0 <= a0 <= 2 * (m + 1) * 67107887 -> 0 <= a1 <= 2 * (m + 1) * 67108799 -> 0 <= a2 <= 2 * (m + 1) * 67108863 -> 0 <= a3 <= 2 * (m + 1) * 67108863 ->
  0 <= a4 <= 2 * (m + 1) * 67108863 -> 0 <= a5 <= 2 * (m + 1) * 67108863 -> 0 <= a6 <= 2 * (m + 1) * 67108863 -> 0 <= a7 <= 2 * (m + 1) * 67108863 ->
  0 <= a8 <= 2 * (m + 1) * 67108863 -> 0 <= a9 <= 2 * (m + 1) * 4194303 ->
  (forall r0 r1 r2 r3 r4 r5 r6 r7 r8 r9,
     r0 = 2 * (m + 1) * 67107887 - a0 -> r1 = 2 * (m + 1) * 67108799 - a1 -> r2 = 2 * (m + 1) * 67108863 - a2 -> r3 = 2 * (m + 1) * 67108863 - a3 ->
     r4 = 2 * (m + 1) * 67108863 - a4 -> r5 = 2 * (m + 1) * 67108863 - a5 -> r6 = 2 * (m + 1) * 67108863 - a6 -> r7 = 2 * (m + 1) * 67108863 - a7 ->
     r8 = 2 * (m + 1) * 67108863 - a8 -> r9 = 2 * (m + 1) * 4194303 - a9 ->
     val10 r0 r1 r2 r3 r4 r5 r6 r7 r8 r9 = 2 * (m + 1) * P256 - val10 a0 a1 a2 a3 a4 a5 a6 a7 a8 a9 -> Q r0 r1 r2 r3 r4 r5 r6 r7 r8 r9) ->
  fe10x26_negate_k a0 a1 a2 a3 a4 a5 a6 a7 a8 a9 m Q.
Proof.
  intros Hm H0 H1 H2 H3 H4 H5 H6 H7 H8 H9 HQ. unfold fe10x26_negate_k. cbv zeta.
  change (u64 (67107887 * 2)) with 134215774. change (u64 (67108799 * 2)) with 134217598. change (u64 (67108863 * 2)) with 134217726. change (u64 (4194303 * 2)) with 8388606.
  unfold u64. rewrite (Z.mod_small (m + 1)) by lia.
  rewrite (Z.mod_small (134215774 * (m + 1))), (Z.mod_small (134217598 * (m + 1))), (Z.mod_small (134217726 * (m + 1))), (Z.mod_small (8388606 * (m + 1))) by lia.
  unfold u32. rewrite !(Z.mod_small _ (2^64)), !Z.mod_small by lia.
  apply HQ; try lia. rewrite <- P256_val10. unfold val10. lia.
Qed.

(* halving with the limb bounds of the result *)
Theorem fe10x26_half_wp t0 t1 t2 t3 t4 t5 t6 t7 t8 t9 (Q : Z -> Z -> Z -> Z -> Z -> Z -> Z -> Z -> Z -> Z -> Prop) :
  0 <= t0 < 2^31 -> 0 <= t1 < 2^31 -> 0 <= t2 < 2^31 -> 0 <= t3 < 2^31 -> 0 <= t4 < 2^31 -> 0 <= t5 < 2^31 -> 0 <= t6 < 2^31 -> 0 <= t7 < 2^31 -> 0 <= t8 < 2^31 -> 0 <= t9 < 2^27 ->
  (forall r0 r1 r2 r3 r4 r5 r6 r7 r8 r9,
    (0 <= 2 * r0 <= t0 + 2^27 /\ 0 <= 2 * r1 <= t1 + 2^27 /\ 0 <= 2 * r2 <= t2 + 2^27 /\ 0 <= 2 * r3 <= t3 + 2^27 /\ 0 <= 2 * r4 <= t4 + 2^27 /\
     0 <= 2 * r5 <= t5 + 2^27 /\ 0 <= 2 * r6 <= t6 + 2^27 /\ 0 <= 2 * r7 <= t7 + 2^27 /\ 0 <= 2 * r8 <= t8 + 2^27 /\ 0 <= 2 * r9 <= t9 + 2^22) ->
    2 * val10 r0 r1 r2 r3 r4 r5 r6 r7 r8 r9 = val10 t0 t1 t2 t3 t4 t5 t6 t7 t8 t9 + (t0 mod 2) * P256 -> Q r0 r1 r2 r3 r4 r5 r6 r7 r8 r9) ->
  fe10x26_half_k t0 t1 t2 t3 t4 t5 t6 t7 t8 t9 Q.
Proof.
  intros H0 H1 H2 H3 H4 H5 H6 H7 H8 H9 HQ. unfold fe10x26_half_k. cbv zeta. rewrite (land1 t0).
  assert (Hb : t0 mod 2 = 0 \/ t0 mod 2 = 1) by (clear; dlia).
  (* the mask is 26 ones when t0 is odd, so that p is added limb by limb *)
  assert (M : u32 (- (t0 mod 2)) / 2^6 = t0 mod 2 * (2^26 - 1) /\
              Z.land 67107887 (t0 mod 2 * (2^26 - 1)) = t0 mod 2 * 67107887 /\
              Z.land 67108799 (t0 mod 2 * (2^26 - 1)) = t0 mod 2 * 67108799 /\
              t0 mod 2 * (2^26 - 1) / 2^4 = t0 mod 2 * (2^22 - 1)) by (destruct Hb as [E|E]; rewrite E; repeat split).
  destruct M as (M1 & M2 & M3 & M4). rewrite M1, M2, M3, M4. clear M1 M2 M3 M4.
  assert (He : (t0 + t0 mod 2 * 67107887) mod 2 = 0) by (clear; dlia).
  revert He HQ. generalize (t0 mod 2) Hb. clear Hb. intros b Hb He HQ.
  unfold u32. rewrite (Z.mod_small (t0 + _)), (Z.mod_small (t1 + _)), (Z.mod_small (t2 + _)), (Z.mod_small (t3 + _)), (Z.mod_small (t4 + _)),
    (Z.mod_small (t5 + _)), (Z.mod_small (t6 + _)), (Z.mod_small (t7 + _)), (Z.mod_small (t8 + _)), (Z.mod_small (t9 + _)) by lia.
  rewrite !(shr1_limb (2^32) 25) by (dlia).
  apply HQ.
  - clear - H0 H1 H2 H3 H4 H5 H6 H7 H8 H9 Hb. dlia.
  - clear - Hb He. rewrite <- P256_val10. unfold val10. dlia.
Qed.
