(* Proof ABOUT the generated constant-time point addition in the 32-bit-limb configuration (Gen/gej_add_ge32.v: secp256k1_gej_add_ge of
   src/group_impl.h translated with USE_FORCE_WIDEMUL_INT64, its 45 field operations kept as calls to the separately translated and proved
   10x26 limb functions - code that the default build and the test suite never compile).  Same statement as GejAddGe.v (add_ge_post32 is
   add_ge_post over 10-limb values) and the same script, over the steps of FieldWp32.v; the algebra is add_ge_head / add_ge_tail of GejAddGe.v. *)
From Coq Require Import ZArith Lia List Bool Setoid Morphisms.
Require Import Kernel.Field5x52 Kernel.Field10x26 Kernel.Cong Kernel.GejAddGe Kernel.FieldWp32.
Require Import Gen.fe10x26_mul_inner Gen.fe10x26_sqr_inner Gen.fe10x26_add Gen.fe10x26_negate Gen.fe10x26_half Gen.fe10x26_mul_int Gen.fe10x26_cmov Gen.fe10x26_ntz Gen.gej_add_ge32.
Import ListNotations.
Local Open Scope Z_scope.
Local Opaque fe10x26_mul_inner_k fe10x26_sqr_inner_k fe10x26_add_k fe10x26_negate_k fe10x26_half_k fe10x26_mul_int_k fe10x26_cmov_k fe10x26_ntz_k.

(* limbs below m * 2^26, top limb below t * 2^22 (magnitude k implies bnd32 (2k) (2k); the results of a multiplication satisfy bnd32 2 1) *)
Definition bnd32 (m t a0 a1 a2 a3 a4 a5 a6 a7 a8 a9 : Z) : Prop :=
  0 <= a0 < m * 2^26 /\ 0 <= a1 < m * 2^26 /\ 0 <= a2 < m * 2^26 /\ 0 <= a3 < m * 2^26 /\ 0 <= a4 < m * 2^26 /\ 0 <= a5 < m * 2^26 /\ 0 <= a6 < m * 2^26 /\ 0 <= a7 < m * 2^26 /\ 0 <= a8 < m * 2^26 /\ 0 <= a9 < t * 2^22.

(* the specification: add_ge_post of GejAddGe.v over the values of 10-limb vectors *)
Definition add_ge_post32 (inf x0 x1 x2 x3 x4 x5 x6 x7 x8 x9 y0 y1 y2 y3 y4 y5 y6 y7 y8 y9 z0 z1 z2 z3 z4 z5 z6 z7 z8 z9 bx0 bx1 bx2 bx3 bx4 bx5 bx6 bx7 bx8 bx9 by0 by1 by2 by3 by4 by5 by6 by7 by8 by9 rinf rx0 rx1 rx2 rx3 rx4 rx5 rx6 rx7 rx8 rx9 ry0 ry1 ry2 ry3 ry4 ry5 ry6 ry7 ry8 ry9 rz0 rz1 rz2 rz3 rz4 rz5 rz6 rz7 rz8 rz9 : Z) : Prop :=
      let X1 := val10 x0 x1 x2 x3 x4 x5 x6 x7 x8 x9 in let Y1 := val10 y0 y1 y2 y3 y4 y5 y6 y7 y8 y9 in let Z1 := val10 z0 z1 z2 z3 z4 z5 z6 z7 z8 z9 in
      let X2 := val10 bx0 bx1 bx2 bx3 bx4 bx5 bx6 bx7 bx8 bx9 in let Y2 := val10 by0 by1 by2 by3 by4 by5 by6 by7 by8 by9 in
      let U2 := X2 * (Z1 * Z1) in let S2 := Y2 * (Z1 * Z1) * Z1 in let T := X1 + U2 in let M := Y1 + S2 in let R := T * T - X1 * U2 in
      let deg := (M mod P256 =? 0) in
      let Ralt := if deg then 2 * Y1 else R in let Malt := if deg then X1 - U2 else M in let NN := if deg then 0 else Malt * Malt * (Malt * Malt) in
      let X3 := Ralt * Ralt - T * (Malt * Malt) in
      (inf = 1 -> (rx0 = bx0 /\ rx1 = bx1 /\ rx2 = bx2 /\ rx3 = bx3 /\ rx4 = bx4 /\ rx5 = bx5 /\ rx6 = bx6 /\ rx7 = bx7 /\ rx8 = bx8 /\ rx9 = bx9) /\ (ry0 = by0 /\ ry1 = by1 /\ ry2 = by2 /\ ry3 = by3 /\ ry4 = by4 /\ ry5 = by5 /\ ry6 = by6 /\ ry7 = by7 /\ ry8 = by8 /\ ry9 = by9) /\
                  (rz0 = 1 /\ rz1 = 0 /\ rz2 = 0 /\ rz3 = 0 /\ rz4 = 0 /\ rz5 = 0 /\ rz6 = 0 /\ rz7 = 0 /\ rz8 = 0 /\ rz9 = 0) /\ rinf = 0) /\
      (inf = 0 -> (bnd32 4 2 rx0 rx1 rx2 rx3 rx4 rx5 rx6 rx7 rx8 rx9 /\ bnd32 8 8 ry0 ry1 ry2 ry3 ry4 ry5 ry6 ry7 ry8 ry9 /\ bnd32 2 1 rz0 rz1 rz2 rz3 rz4 rz5 rz6 rz7 rz8 rz9) /\
                  cong (val10 rz0 rz1 rz2 rz3 rz4 rz5 rz6 rz7 rz8 rz9) (Z1 * Malt) /\ cong (val10 rx0 rx1 rx2 rx3 rx4 rx5 rx6 rx7 rx8 rx9) X3 /\
                  cong (2 * val10 ry0 ry1 ry2 ry3 ry4 ry5 ry6 ry7 ry8 ry9) (- (Ralt * (2 * X3 - T * (Malt * Malt)) + NN)) /\
                  rinf = (if (Z1 * Malt) mod P256 =? 0 then 1 else 0)).

Ltac inf1_finish :=
  cbv beta delta [add_ge_post32]; intros ? ? ? ? ? ? ? ? ? ? ? ? ? ? ?;
  split; [intros _; subst; repeat split; reflexivity | let E := fresh "E" in intro E; discriminate E].

Lemma lt26_one : lt26 1 1 1 0 0 0 0 0 0 0 0 0.
Proof. unfold lt26. lia. Qed.

Theorem gej_add_ge32_correct inf x0 x1 x2 x3 x4 x5 x6 x7 x8 x9 y0 y1 y2 y3 y4 y5 y6 y7 y8 y9 z0 z1 z2 z3 z4 z5 z6 z7 z8 z9 bx0 bx1 bx2 bx3 bx4 bx5 bx6 bx7 bx8 bx9 by0 by1 by2 by3 by4 by5 by6 by7 by8 by9 :
  (inf = 0 \/ inf = 1) ->
  bnd32 8 8 x0 x1 x2 x3 x4 x5 x6 x7 x8 x9 -> bnd32 8 8 y0 y1 y2 y3 y4 y5 y6 y7 y8 y9 -> bnd32 16 16 z0 z1 z2 z3 z4 z5 z6 z7 z8 z9 -> bnd32 16 16 bx0 bx1 bx2 bx3 bx4 bx5 bx6 bx7 bx8 bx9 -> bnd32 16 16 by0 by1 by2 by3 by4 by5 by6 by7 by8 by9 ->
  gej_add_ge32_k inf x0 x1 x2 x3 x4 x5 x6 x7 x8 x9 y0 y1 y2 y3 y4 y5 y6 y7 y8 y9 z0 z1 z2 z3 z4 z5 z6 z7 z8 z9 bx0 bx1 bx2 bx3 bx4 bx5 bx6 bx7 bx8 bx9 by0 by1 by2 by3 by4 by5 by6 by7 by8 by9
    (add_ge_post32 inf x0 x1 x2 x3 x4 x5 x6 x7 x8 x9 y0 y1 y2 y3 y4 y5 y6 y7 y8 y9 z0 z1 z2 z3 z4 z5 z6 z7 z8 z9 bx0 bx1 bx2 bx3 bx4 bx5 bx6 bx7 bx8 bx9 by0 by1 by2 by3 by4 by5 by6 by7 by8 by9).
Proof.
  change bnd32 with lt26. intros Hinf Hx Hy Hz Hbx Hby. pose proof lt26_one as H1.
  unfold gej_add_ge32_k.
  copy_step.
  sqr_step. copy_step. mul_step. copy_step. mul_step. mul_step. copy_step. add_step. copy_step. add_step. sqr_step. negate_step. mul_step. add_step.
  ntz_step.
  match type of N with _ = (if ?c =? 0 then 1 else 0) => destruct (Z.eqb_spec c 0) as [Dg|Dg] end; subst ret; flag_norm.
  - (* degenerate: M = 0 mod p *)
    copy_step. mul_int_step. add_step. cmov0_step. cmov0_step. sqr_step. negate_step. mul_step. sqr_step. cmov1_step. sqr_step. mul_step. add_step.
    copy_step. mul_int_step. add_step. mul_step. add_step. negate_step. half_step.
    destruct Hinf as [-> | ->].
    + cmov0_step. cmov0_step. cmov0_step. ntz_step.
      cbv beta delta [add_ge_post32]. intros X1 Y1 Z1 X2 Y2 U2 S2 T M R deg Ralt Malt NN X3.
      split; [intro E; discriminate E|]. intros _.
      split; [change bnd32 with lt26; split; [within | split; within]|].
      destruct (add_ge_head _ _ _ _ _ _ _ _ _ _ _ _ _ _ _ C C0 C1 C2 V V0 C3 V1 C4 V2) as [HT [HM [HR HMa]]].
      assert (Hdeg : deg = true) by (unfold deg; apply Z.eqb_eq; rewrite <- Dg; symmetry; exact (cong_mod _ _ HM)).
      match type of Dg with ?mv mod _ = 0 => assert (HN0 : cong mv 0) by (apply cong_of_mod; rewrite Z.sub_0_r; exact Dg) end.
      match type of V3 with ?ra = _ => assert (HRa : cong ra (2 * Y1)) by (rewrite V3; apply cong_of_eq; unfold Y1; ring) end.
      rewrite <- V4 in HMa.
      destruct (add_ge_tail _ _ _ _ _ _ _ _ _ _ _ _ _ _ _ _ _ _ _ _ _ _ HT HRa HMa HN0 C5 V5 C6 C8 C9 V6 V7 V8 C10 V9 V10 V11) as [G1 [G2 G3]].
      unfold X3, NN, Ralt, Malt; rewrite Hdeg.
      split; [exact G1|]. split; [exact G2|]. split; [exact G3|].
      rewrite N. rewrite (cong_mod _ _ G1). reflexivity.
    + cmov1_step. cmov1_step. cmov1_step. ntz_step. inf1_finish.
  - (* the generic case: M <> 0 mod p *)
    copy_step. mul_int_step. add_step. cmov1_step. cmov1_step. sqr_step. negate_step. mul_step. sqr_step. cmov0_step. sqr_step. mul_step. add_step.
    copy_step. mul_int_step. add_step. mul_step. add_step. negate_step. half_step.
    destruct Hinf as [-> | ->].
    + cmov0_step. cmov0_step. cmov0_step. ntz_step.
      cbv beta delta [add_ge_post32]. intros X1 Y1 Z1 X2 Y2 U2 S2 T M R deg Ralt Malt NN X3.
      split; [intro E; discriminate E|]. intros _.
      split; [change bnd32 with lt26; split; [within | split; within]|].
      destruct (add_ge_head _ _ _ _ _ _ _ _ _ _ _ _ _ _ _ C C0 C1 C2 V V0 C3 V1 C4 V2) as [HT [HM [HR HMa]]].
      assert (Hdeg : deg = false) by (unfold deg; apply Z.eqb_neq; intro E; apply Dg; rewrite <- E; exact (cong_mod _ _ HM)).
      match type of C7 with cong ?n4 _ => assert (HN4 : cong n4 (M * M * (M * M))) by (rewrite C7, C5, HM; reflexivity) end.
      destruct (add_ge_tail _ _ _ _ _ _ _ _ _ _ _ _ _ _ _ _ _ _ _ _ _ _ HT HR HM HN4 C5 V5 C6 C8 C9 V6 V7 V8 C10 V9 V10 V11) as [G1 [G2 G3]].
      unfold X3, NN, Ralt, Malt; rewrite Hdeg.
      split; [exact G1|]. split; [exact G2|]. split; [exact G3|].
      rewrite N. rewrite (cong_mod _ _ G1). reflexivity.
    + cmov1_step. cmov1_step. cmov1_step. ntz_step. inf1_finish.
Qed.
