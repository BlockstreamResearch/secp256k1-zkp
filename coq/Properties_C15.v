(* C15 - sign-to-contract and the ECDSA anti-exfil protocol.  Statements, each an instance or short
   corollary of a lemma of Proofs/S2cProofs.v or Proofs/S2cComplete.v.
   Model: Model/S2c.v (tied to the C code by the correspondence check of ./check C15). *)
From Coq Require Import ZArith List Bool Lia.
Require Import Spec.Params Spec.Field Spec.Curve Spec.Bytes Spec.Sha256.
Require Import Model.Base Model.Keys Model.Der Model.Ecdsa Model.S2c.
Require Import Proofs.MathFacts Proofs.BaseLemmas Proofs.SecpConsts Proofs.Toy Proofs.AdaptorProofs Proofs.S2cProofs Proofs.S2cComplete.
Import ListNotations.
Local Open Scope Z_scope.
Notation S := secp256k1.

(* The two midstates hard-coded in the C code are the SHA-256 states after SHA256(tag)||SHA256(tag). *)
Theorem s2c_midstates_correct :
  tagged_midstate tag_s2c_point = midstate_s2c_point /\ tagged_midstate tag_s2c_data = midstate_s2c_data.
Proof. exact s2c_midstates_correct. Qed.
Print Assumptions s2c_midstates_correct.

(* The host commitment is the tagged hash "s2c/ecdsa/data" of rho - the very value s2c_sign feeds to RFC 6979. *)
Theorem host_commit_is_tagged_hash :
  forall rho, anti_exfil_host_commit rho = [AInt 1; ABytes (tagged_hash tag_s2c_data rho)].
Proof. intros. unfold anti_exfil_host_commit. rewrite s2c_data_tagged. reflexivity. Qed.
Print Assumptions host_commit_is_tagged_hash.
Theorem s2c_data_hash_is_tagged_hash :
  forall data, s2c_data_hash data = tagged_hash tag_s2c_data data.
Proof. exact s2c_data_tagged. Qed.
Print Assumptions s2c_data_hash_is_tagged_hash.

(* THE KEY ONE.  The opening computed by anti_exfil_signer_commit from the host's commitment to rho equals the
   opening exported by s2c_sign with the revealed rho - for ALL byte strings msg32 (values >= n included),
   seckey and rho.  Proved from the two separately written loops of the model (s2c_sign_loop: nonce derived
   inside the signing loop, data = tagged hash of rho; signer_commit_loop: default nonce function on the
   received commitment).  The model is independent of the context's compression function by construction;
   that the C code is too is what the correspondence check exercises with a replaced implementation. *)
Theorem signer_commit_eq_sign_opening :
  forall msg32 seckey rho sig opening,
    ecdsa_s2c_sign S msg32 seckey rho true = [AInt 1; ABytes sig; ABytes opening] ->
    forall c, anti_exfil_host_commit rho = [AInt 1; ABytes c] ->
    anti_exfil_signer_commit S msg32 seckey c = [AInt 1; ABytes opening].
Proof. exact (signer_commit_eq_sign_opening S). Qed.
Print Assumptions signer_commit_eq_sign_opening.

(* Loop level and stronger: for every fuel, start counter, key scalar d and message scalar m, also when signing
   eventually FAILS after having stored an opening (invalid key, tweak overflow).  The only excluded outcomes are
   the model's abstentions: out of fuel, and the retry after a tweaked nonce gave r = 0 or s = 0 (there the C
   code would overwrite the opening with the next nonce - probability 2^-255 per attempt). *)
Theorem signer_commit_eq_sign_opening_loops :
  forall fuel counter msg32 seckey rho d m,
    match s2c_sign_loop S fuel counter msg32 seckey (s2c_data_hash rho) rho d m with
    | S2cOk _ _ Q => signer_commit_loop S fuel counter msg32 seckey (sha256_from midstate_s2c_data 64 rho) = Some Q
    | S2cFail (Some Q) => signer_commit_loop S fuel counter msg32 seckey (sha256_from midstate_s2c_data 64 rho) = Some Q
    | S2cFail None => False
    | S2cRetryAfterTweak => True
    | S2cOutOfFuel => True
    end.
Proof. exact (loops_agree S). Qed.
Print Assumptions signer_commit_eq_sign_opening_loops.

(* Whole protocol run with the same randomness: the two openings are equal. *)
Theorem protocol_openings_equal :
  forall msg32 seckey pkobj rho c o1 sig o2 rest,
    anti_exfil_protocol S msg32 seckey pkobj rho rho = ABytes c :: ABytes o1 :: AInt 1 :: ABytes sig :: ABytes o2 :: rest ->
    o1 = o2.
Proof. exact (protocol_openings_equal_fuel S sign_fuel). Qed.
Print Assumptions protocol_openings_equal.

(* verify_commit accepts exactly when: the opening loads as a point Q, the tweak t = H_point(Q || data) is < n,
   C = Q + t*G is not infinity, and r = C.x mod n (s is not looked at, C.x >= n is reduced silently). *)
Theorem verify_commit_exact :
  forall sigobj data32 obj,
    ecdsa_s2c_verify_commit S sigobj data32 obj = [AInt 1] <->
    exists Q C,
      pk_load obj = Some Q /\ Q <> None /\
      let t := be_val (sha256_from midstate_s2c_point 64 (ser33 Q ++ data32)) in
      t < cn S /\ C = padd S Q (pmul S (t mod cn S) (G S)) /\ C <> None /\
      be_val (firstn 32 sigobj) mod cn S = be_val (fe_to_b32 (px C)) mod cn S.
Proof. exact (verify_commit_exact S). Qed.
Print Assumptions verify_commit_exact.
Theorem verify_commit_results :
  forall sigobj data32 obj,
    ecdsa_s2c_verify_commit S sigobj data32 obj = [AInt 1] \/
    ecdsa_s2c_verify_commit S sigobj data32 obj = [AInt 0] \/
    ecdsa_s2c_verify_commit S sigobj data32 obj = [AInt 0; AIll 1] /\ pk_load obj = None.
Proof.
  intros. unfold ecdsa_s2c_verify_commit.
  destruct (pk_load obj); [|right; right; split; reflexivity].
  destruct (ec_commit _ _ _ _); [|right; left; reflexivity].
  destruct (_ =? _); [left|right; left]; reflexivity.
Qed.
Print Assumptions verify_commit_results.
Theorem commit_tweak_is_tagged_hash :
  forall Q data tw, ec_commit_tweak midstate_s2c_point Q data = Some tw -> tw = tagged_hash tag_s2c_point (ser33 Q ++ data).
Proof.
  intros Q data tw. unfold ec_commit_tweak. destruct (is_inf Q); [discriminate|]. intros [= <-]. apply s2c_point_tagged.
Qed.
Print Assumptions commit_tweak_is_tagged_hash.

(* host_verify = verify_commit && ecdsa_verify (left to right, short-circuit) *)
Theorem host_verify_exact :
  forall sigobj msg32 pkobj host_data32 obj,
    anti_exfil_host_verify S sigobj msg32 pkobj host_data32 obj =
      (if ret_of (ecdsa_s2c_verify_commit S sigobj host_data32 obj) =? 1
       then ecdsa_verify S sigobj msg32 pkobj
       else ecdsa_s2c_verify_commit S sigobj host_data32 obj)
    /\
    (ret_of (anti_exfil_host_verify S sigobj msg32 pkobj host_data32 obj) = 1 <->
     ret_of (ecdsa_s2c_verify_commit S sigobj host_data32 obj) = 1 /\
     ret_of (ecdsa_verify S sigobj msg32 pkobj) = 1).
Proof. exact (host_verify_exact S). Qed.
Print Assumptions host_verify_exact.

(* signing failures leave an all-zero signature; an invalid key always fails *)
Theorem s2c_sign_failure_zeroes :
  forall msg32 seckey data32 w,
    ecdsa_s2c_sign S msg32 seckey data32 w = abstain \/
    ecdsa_s2c_sign S msg32 seckey data32 w = [AInt 0; ABytes (zeros 64)] \/
    exists r s, firstn 2 (ecdsa_s2c_sign S msg32 seckey data32 w) = [AInt 1; ABytes (sig_obj r s)].
Proof. exact (s2c_sign_failure_zeroes_fuel S sign_fuel). Qed.
Print Assumptions s2c_sign_failure_zeroes.
Theorem s2c_sign_rejects_invalid_seckey :
  forall msg32 seckey data32 w, seckey_of_b32 S seckey = None ->
    ecdsa_s2c_sign S msg32 seckey data32 w = abstain \/ ecdsa_s2c_sign S msg32 seckey data32 w = [AInt 0; ABytes (zeros 64)].
Proof. exact (s2c_sign_rejects_invalid_seckey_fuel S sign_fuel). Qed.
Print Assumptions s2c_sign_rejects_invalid_seckey.
Theorem anti_exfil_sign_eq_s2c_sign :
  forall msg32 seckey rho sig opening,
    ecdsa_s2c_sign S msg32 seckey rho true = [AInt 1; ABytes sig; ABytes opening] ->
    anti_exfil_sign S msg32 seckey rho = [AInt 1; ABytes sig].
Proof. exact (anti_exfil_sign_eq_fuel S sign_fuel). Qed.
Print Assumptions anti_exfil_sign_eq_s2c_sign.

(* openings obtained from the parser *)
Theorem opening_parse_exact :
  forall tag xs o, length xs = 32%nat ->
    (s2c_opening_parse S (tag :: xs) = [AInt 1; ABytes o] <->
     exists Q, (tag = 2 \/ tag = 3) /\ be_val xs < cp S /\ lift_x S (be_val xs) (tag =? 3) = Q /\ Q <> None /\ o = pk_obj Q).
Proof.
  intros tag xs o Hl. rewrite (opening_parse_33 S) by assumption. split.
  - destruct (eckey_pubkey_parse S (tag :: xs)) as [Q|] eqn:E; [|discriminate]. intros [= <-].
    apply (parse33_exact S) in E; [|assumption]. exists Q. tauto.
  - intros (Q & H1 & H2 & H3 & H4 & ->). rewrite (proj2 (parse33_exact S tag xs Q Hl)) by tauto. reflexivity.
Qed.
Print Assumptions opening_parse_exact.
Theorem opening_parse_rejects :
  forall tag xs, length xs = 32%nat ->
    (tag <> 2 /\ tag <> 3) \/ cp S <= be_val xs \/ lift_x S (be_val xs) (tag =? 3) = None ->
    s2c_opening_parse S (tag :: xs) = [AInt 0].
Proof. intros tag xs Hl H. rewrite (opening_parse_33 S), (parse33_rejects S tag xs Hl H) by assumption. reflexivity. Qed.
Print Assumptions opening_parse_rejects.

(* completeness, under the mathematical premises about the curve (explicit hypotheses, not axioms) *)
(* [MF] Whenever the signing loop succeeds with opening Q and signature (r, s): the commitment
   C = Q + H_point(Q || data)*G exists, is a curve point, and r = C.x mod n - for every fuel, counter, key, message. *)
Theorem s2c_commit_verifies :
  MathFacts S ->
  forall fuel counter msg32 seckey ndata data32 d m r s Q,
    s2c_sign_loop S fuel counter msg32 seckey ndata data32 d m = S2cOk r s Q ->
    exists x y, ec_commit S midstate_s2c_point Q data32 = Some (Some (x, y)) /\ r = x mod cn S /\ oc S (Some (x, y)).
Proof. intro MF. exact (s2c_loop_commits S MF). Qed.
Print Assumptions s2c_commit_verifies.

(* [MF] API level: the (signature, datum, opening) triple returned by s2c_sign passes verify_commit, provided the
   opening object loads back as the point it was saved from (pk_load_pk_obj: true for every curve point with x <> 0). *)
Theorem s2c_sign_commit_verifies :
  MathFacts S ->
  forall msg32 seckey data32 sig opening,
    ecdsa_s2c_sign S msg32 seckey data32 true = [AInt 1; ABytes sig; ABytes opening] ->
    exists Q, opening = pk_obj Q /\
      (pk_load opening = Some Q -> ecdsa_s2c_verify_commit S sig data32 opening = [AInt 1]).
Proof. intro MF. exact (s2c_sign_commit_verifies_fuel S MF (Z.lt_le_incl _ _ secp_p_lt_2_256) secp_n_lt_p sign_fuel). Qed.
Print Assumptions s2c_sign_commit_verifies.
Theorem opening_object_loads_back :
  forall x y, oc S (Some (x, y)) -> x <> 0 -> pk_load (pk_obj (Some (x, y))) = Some (Some (x, y)).
Proof. exact (pk_load_pk_obj_oc S (Z.lt_le_incl _ _ secp_p_lt_2_256)). Qed.
Print Assumptions opening_object_loads_back.

(* [MF, InvFacts] the signature satisfies the ECDSA verification equation for the key d*G and message m *)
Theorem s2c_sign_valid :
  MathFacts S -> InvFacts S ->
  forall fuel counter msg32 seckey ndata data32 d m r s Q,
    0 < d < cn S -> 0 <= m < cn S ->
    s2c_sign_loop S fuel counter msg32 seckey ndata data32 d m = S2cOk r s Q ->
    sig_verify S r s (pmul S d (G S)) m = true.
Proof. intros MF IF. exact (s2c_loop_sig_valid S MF secp_n_lt_p IF secp_p_lt_2n secp_G_inr). Qed.
Print Assumptions s2c_sign_valid.

(* the premises are satisfiable: on the toy curve y^2 = x^3 + 7 over F_43 they are PROVED, and the theorems hold there unconditionally *)
Example premises_satisfiable : MathFacts toy /\ InvFacts toy.
Proof. exact (conj toy_MathFacts toy_InvFacts). Qed.
Example s2c_commit_verifies_toy :
  forall fuel counter msg32 seckey ndata data32 d m r s Q,
    s2c_sign_loop toy fuel counter msg32 seckey ndata data32 d m = S2cOk r s Q ->
    exists x y, ec_commit toy midstate_s2c_point Q data32 = Some (Some (x, y)) /\ r = x mod cn toy /\ oc toy (Some (x, y)).
Proof. exact (s2c_loop_commits toy toy_MathFacts). Qed.
