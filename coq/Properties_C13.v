(* C13 - a MuSig secret nonce signs at most once, whatever happens.
   Theorems about the history machine Model/MusigNonceSM.v (step : state -> op -> state * out) and the
   functions of Model/Musig.v it is built from.  No premises: nothing here depends on the curve. *)
From Coq Require Import ZArith List Bool.
Require Import Spec.Params Spec.Curve Spec.Bytes Model.Base Model.Keys Model.Musig Model.MusigNonceSM.
Require Import Proofs.BytesLemmas Proofs.MusigProofs.
Import ListNotations.
Local Open Scope Z_scope.

(* For every state and EVERY outcome (success; failure of any check after the load: NULL output, NULL or
   invalid keypair, key mismatch, invalid cache, invalid session; failure of the load itself) the named
   secret-nonce object is all-zero after a partial_sign step. *)
Theorem partial_sign_always_wipes : forall P s k want_sig keypair cache session,
  (k < length (slots s))%nat ->
  nth_error (slots (fst (step P s (OSign (Some k) want_sig keypair cache session)))) k = Some (zeros 132).
Proof. exact step_sign_wipes. Qed.
Print Assumptions partial_sign_always_wipes.

Theorem partial_sign_api_always_wipes : forall P sec want_sig keypair cache session,
  snd (partial_sign P (Some sec) want_sig keypair cache session) = Some (zeros 132).
Proof.
  intros. unfold partial_sign. destruct (partial_sign_core P sec want_sig keypair cache session) as [[r i] s]. reflexivity.
Qed.
Print Assumptions partial_sign_api_always_wipes.

Theorem zero_nonce_never_signs : forall P s k want_sig keypair cache session,
  nth_error (slots s) k = Some (zeros 132) ->
  let r := step P s (OSign (Some k) want_sig keypair cache session) in
  o_ret (snd r) = 0 /\ o_ill (snd r) = 1 /\ siglog (fst r) = siglog s /\
  o_sig (snd r) = (if want_sig then Some (zeros 36) else None).
Proof.
  intros P s k w kp c se E. cbv zeta.
  destruct (step_sign_cases P s k _ w kp c se E) as [[v [Hv _]]| ->]; [|cbn [fst snd o_ret o_ill o_sig siglog]; auto].
  destruct Hv as [? ? ? ? ? ? ? ? ? H]. rewrite secnonce_load_zeros in H. discriminate.
Qed.
Print Assumptions zero_nonce_never_signs.

(* after a partial_sign step on object k (whatever its outcome) and any further operations that do not
   refill k (no nonce_gen / nonce_gen_counter / caller overwrite on k), partial_sign on k signs nothing *)
Theorem used_nonce_never_signs : forall P s k w1 kp1 c1 se1 ops w2 kp2 c2 se2,
  (k < length (slots s))%nat ->
  forallb (fun o => negb (refills k o)) ops = true ->
  let s1 := fst (step P s (OSign (Some k) w1 kp1 c1 se1)) in
  let s2 := final P s1 ops in
  let r := step P s2 (OSign (Some k) w2 kp2 c2 se2) in
  o_ret (snd r) = 0 /\ siglog (fst r) = siglog s2 /\ o_sig (snd r) = (if w2 then Some (zeros 36) else None).
Proof.
  intros P s k w1 kp1 c1 se1 ops w2 kp2 c2 se2 Hk Hops. cbv zeta.
  pose proof (final_keeps_zero P ops _ k Hops (step_sign_wipes P s k w1 kp1 c1 se1 Hk)) as Z.
  destruct (zero_nonce_never_signs P _ k w2 kp2 c2 se2 Z) as (A&_&C&D). auto.
Qed.
Print Assumptions used_nonce_never_signs.

(* the nonce/key binding compares the whole point: a keypair whose public key differs from the stored one
   in x OR in y (e.g. the keypair of the negated key) gets no signature, one callback, and the nonce is gone *)
Theorem foreign_key_never_signs : forall P s k sec k1 k2 pk want_sig kp d kpk cache session,
  nth_error (slots s) k = Some sec ->
  secnonce_load P sec = Some (k1, k2, pk) -> keypair_load P kp = Some (d, kpk) -> pk <> kpk ->
  let r := step P s (OSign (Some k) want_sig (Some kp) cache session) in
  o_ret (snd r) = 0 /\ o_ill (snd r) = 1 /\ siglog (fst r) = siglog s /\
  o_sig (snd r) = (if want_sig then Some (zeros 36) else None) /\
  nth_error (slots (fst r)) k = Some (zeros 132).
Proof.
  intros P s k sec k1 k2 pk w kp d kpk c se E L K N. cbv zeta.
  destruct (step_sign_cases P s k sec w (Some kp) c se E) as [[v [Hv _]]| ->].
  - destruct Hv as [? ? ? ? ? ? ? ? ? L' _ K' K'']. injection K' as <-. congruence.
  - cbn [fst snd o_ret o_ill o_sig siglog slots]. repeat split; auto. apply nth_error_set_nth_eq, nth_error_Some. congruence.
Qed.
Print Assumptions foreign_key_never_signs.

Theorem negated_key_is_foreign : forall x y y' : Z, y <> y' -> Some (x, y) <> Some (x, y').
Proof. intros x y y' H E. injection E as E. contradiction. Qed.
Print Assumptions negated_key_is_foreign.

(* History invariant, by induction over the operation list: the ghost log of (generation event, signature)
   pairs never holds two signatures for the same generation event. *)
Theorem at_most_one_signature : forall P slots0 rands0 ops,
  NoDup (map fst (siglog (fold_left (fun st o => fst (step P st o)) ops (init_state slots0 rands0)))).
Proof. intros P slots0 rands0 ops. exact (wf_log_nodup P _ (wf_final P ops _ (wf_init P slots0 rands0))). Qed.
Print Assumptions at_most_one_signature.

(* ... and the ghost log is faithful to what the steps output *)
Theorem signature_is_logged : forall P s k sec want_sig keypair cache session,
  nth_error (slots s) k = Some sec ->
  let r := step P s (OSign (Some k) want_sig keypair cache session) in
  (o_ret (snd r) = 1 ->
     exists v, siglog (fst r) = (slot_id s k, v) :: siglog s /\ o_sig (snd r) = Some (psig_save v)) /\
  (o_ret (snd r) <> 1 -> siglog (fst r) = siglog s /\ (o_sig (snd r) = None \/ o_sig (snd r) = Some (zeros 36))).
Proof.
  intros P s k sec w kp c se E. cbv zeta.
  destruct (step_sign_cases P s k sec w kp c se E) as [[v [_ ->]]| ->];
    cbn [fst snd o_ret o_sig siglog]; split; try congruence; eauto.
  intros _. destruct w; auto.
Qed.
Print Assumptions signature_is_logged.

Theorem only_partial_sign_logs : forall P s o,
  match o with OSign _ _ _ _ _ => True | _ => siglog (fst (step P s o)) = siglog s end.
Proof.
  intros P s o.
  destruct (step_state_cases P s o) as [E|[(k&ct&r&_&_&E)|(k&sec&w&kp&c&se&->&_)]]; [rewrite E..|exact I];
    destruct o; reflexivity || exact I.
Qed.
Print Assumptions only_partial_sign_logs.

Theorem nonce_gen_contract : forall P s k want_pubnonce ri seckey pubkey msg32 cache extra32,
  (k < length (slots s))%nat ->
  let r := step P s (OGen (Some k) want_pubnonce ri seckey pubkey msg32 cache extra32) in
  (o_ret (snd r) <> 1 -> nth_error (slots (fst r)) k = Some (zeros 132)) /\
  (forall rb, get_rand s ri = Some rb -> is_zero_bytes rb = true ->
        o_ret (snd r) = 0 /\ o_ill (snd r) = 0 /\ nth_error (slots (fst r)) k = Some (zeros 132)) /\
  (o_ret (snd r) = 1 -> forall i, ri = Some i -> nth_error (rands (fst r)) i = Some (zeros 32)) /\
  (o_ret (snd r) = 1 -> exists k1 k2 pk obj, pubkey = Some obj /\ pk_load obj = Some pk /\
        nth_error (slots (fst r)) k = Some (secnonce_save k1 k2 pk) /\ skipn 68 (secnonce_save k1 k2 pk) = pk_obj pk).
Proof.
  intros P s k wp ri sk pko msg c ex Hk. destruct (nth_error_lt_ex _ _ Hk) as [before E].
  cbv zeta. rewrite (step_gen_eq P s k before wp ri sk pko msg c ex E).
  destruct (nonce_gen_sec_contract P before wp (get_rand s ri) sk pko msg c ex) as (C1&C2&C3&C4).
  set (o := nonce_gen_sec P true before wp (get_rand s ri) sk pko msg c ex) in *.
  cbn [fst snd o_ret o_ill fill slots rands]. rewrite (nth_error_set_nth_eq k _ _ Hk).
  assert (T : b2z (ng_r o) = 1 -> ng_r o = true) by (destruct (ng_r o); [reflexivity|discriminate]).
  split; [|split; [|split]].
  - intros H. f_equal. apply C3. destruct (ng_r o); [elim H|]; reflexivity.
  - intros rb H H0. destruct (C1 rb H H0) as (->&->&->). auto.
  - intros H i ->. destruct (C2 (T H)) as [-> N]. cbn [get_rand] in *.
    destruct (nth_error (rands s) i) eqn:Er; [|elim N; reflexivity]. apply nth_error_set_nth_eq, nth_error_Some. congruence.
  - intros H. destruct (C4 (T H)) as (k1&k2&pk&obj&A1&A2&A3&A4). exists k1, k2, pk, obj. rewrite A3. auto using skipn_68_secnonce.
Qed.
Print Assumptions nonce_gen_contract.

(* the stored public key bytes ARE the supplied object when that object is canonical *)
Theorem stored_pubkey_is_supplied : forall o pk, length o = 64%nat -> bytes_okP o -> pk_load o = Some pk -> pk_obj pk = o.
Proof.
  intros o pk L B H. unfold pk_load in H. destruct (_ =? 0); [discriminate|]. injection H as <-.
  unfold pk_obj, fe_to_b32. rewrite <- (firstn_skipn 32 o) at 3.
  f_equal; apply be_enc_val_len; auto using okP_firstn, okP_skipn; rewrite ?firstn_length, ?skipn_length, L; reflexivity.
Qed.
Print Assumptions stored_pubkey_is_supplied.

Theorem nonce_gen_counter_contract : forall P before want_pubnonce cnt keypair msg32 cache extra32,
  let o := nonce_gen_counter_sec P true before want_pubnonce cnt keypair msg32 cache extra32 in
  (ng_r o = false -> ng_sec o = zeros 132) /\
  (ng_r o = true -> exists k1 k2 pk kpb, keypair = Some kpb /\ pk_load (skipn 32 kpb) = Some pk /\
                    seckey_of_b32 P (firstn 32 kpb) <> None /\
                    ng_sec o = secnonce_save k1 k2 pk /\ skipn 68 (ng_sec o) = pk_obj pk).
Proof.
  intros P before wp cnt kp msg c ex. unfold nonce_gen_counter_sec. cbn [negb]. destruct kp as [kpb|]; cbn [ng_r ng_sec].
  2: { split; [reflexivity|discriminate]. }
  split; [apply ng_secnonce_fail|]. intros H. destruct (ng_ret_done _ H) as (k1&k2&pk&E). rewrite E.
  destruct (nonce_gen_internal_inv P _ _ _ _ _ _ _ _ _ _ _ E) as (_&Hok&o&a&Eo&EL&_). injection Eo as <-.
  exists k1, k2, pk, kpb. cbn [ng_secnonce]. repeat split; auto using skipn_68_secnonce.
  intros N. rewrite N in Hok. discriminate.
Qed.
Print Assumptions nonce_gen_counter_contract.

(* the premises of foreign_key_never_signs are satisfiable: a nonce bound to G, the keypair of -G (secret n-1) *)
Example foreign_key_premises :
  let sec := magic_secnonce ++ be_enc 32 1 ++ be_enc 32 2 ++ pk_obj (G secp256k1) in
  let kp := be_enc 32 (cn secp256k1 - 1) ++ pk_obj (pneg secp256k1 (G secp256k1)) in
  secnonce_load secp256k1 sec = Some (1, 2, G secp256k1) /\
  keypair_load secp256k1 kp = Some (cn secp256k1 - 1, pneg secp256k1 (G secp256k1)) /\
  G secp256k1 <> pneg secp256k1 (G secp256k1).
Proof. vm_compute. repeat split; discriminate. Qed.
