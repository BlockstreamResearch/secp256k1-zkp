(* C11 - Surjection proofs: complete, exact and canonically encoded.
   Theorems about the executable model Model/Surjection.v (the functions the correspondence check runs
   against the C implementation).
   [MF] = stated under the explicit premise MathFacts P (group law of the curve, p and n prime) and
   n < 2^256; all other theorems need no premise about the curve. *)
From Coq Require Import ZArith List Bool Lia.
Require Import Spec.Params Spec.Curve Spec.Bytes Model.Base Model.Borromean Model.Surjection Proofs.MathFacts Proofs.BytesLemmas Proofs.BorromeanProofs Proofs.SurjectionProofs Proofs.SurjectionComplete.
Import ListNotations.
Local Open Scope Z_scope.

(* parsing accepts EXACTLY the canonical encodings: n_inputs <= 256, exact length
   2 + ceil(n/8) + 32*(1 + popcount(bitmap)), no bit set in the last bitmap byte at a position >= n *)
Theorem parse_exact : forall input : bytes,
  (exists pr, parse input = Some pr) <->
  (let len := Z.of_nat (length input) in
   let n := nth 1 input 0 * 256 + nth 0 input 0 in
   2 <= len /\ n <= 256 /\
   len = 2 + (n + 7) / 8 + 32 * (1 + count_bits (firstn (Z.to_nat ((n + 7) / 8)) (skipn 2 input))) /\
   (forall j, n mod 8 <> 0 -> n mod 8 <= j < 8 -> Z.testbit (nth (Z.to_nat (2 + (n + 7) / 8 - 1)) input 0) j = false)).
Proof.
  intros input. split; [intros [pr H]; apply parse_Some_iff in H; apply H |].
  intros H. eexists. apply parse_Some_iff. split; [exact H | reflexivity].
Qed.
Print Assumptions parse_exact.

(* the parsed object holds the count, the bitmap and the signature bytes of the input, nothing else *)
Theorem parse_result_fields : forall input pr, parse input = Some pr ->
  sp_n pr = n_field input /\ sp_used pr = bitmap_of input /\
  sp_data pr = skipn (Z.to_nat (2 + bitmap_len (n_field input))) input /\
  Z.of_nat (length input) = 2 + bitmap_len (n_field input) + 32 * (1 + count_bits (bitmap_of input)) /\
  2 <= Z.of_nat (length input) /\ n_field input <= 256.
Proof.
  intros input pr H. apply parse_Some_iff in H. destruct H as [(C1 & C2 & C3 & _) ->]. cbn [sp_n sp_used sp_data]. auto 6.
Qed.
Print Assumptions parse_result_fields.

(* round trip 1: serializing a parsed proof gives back the input, and serialized_size is its length *)
Theorem serialize_parse : forall input pr, bytes_ok input = true -> parse input = Some pr ->
  serialize_bytes pr = input /\ serialized_size pr = Z.of_nat (length input).
Proof.
  intros input pr Hok H. apply parse_Some_iff in H. destruct H as [C ->]. exact (serialize_canonical input Hok C).
Qed.
Print Assumptions serialize_parse.

(* round trip 2: the serialization of a well-formed object (n <= 256, arrays long enough, no padding bit)
   parses, to the observable part of the same object *)
Theorem parse_serialize : forall pr, wf_proof pr ->
  parse (serialize_bytes pr) = Some (mkProof (sp_n pr) (used_prefix pr) (firstn (Z.to_nat (sig_len pr)) (sp_data pr))).
Proof.
  intros pr H. destruct (serialize_fields pr H) as (E1 & E2 & E3 & _).
  apply parse_Some_iff. split; [exact (serialize_is_canonical pr H) |]. rewrite E1, E2, E3. reflexivity.
Qed.
Print Assumptions parse_serialize.

(* verification rejects: empty selection, tag-count mismatch, more used than total, a scalar >= n *)
Theorem verify_rejects_empty : forall P pr in_tags out_tag,
  n_used_inputs pr = 0 -> verify P pr in_tags out_tag = false.
Proof. intros P pr i o H. destruct (verify P pr i o) eqn:E; [apply verify_iff in E; tauto | reflexivity]. Qed.
Print Assumptions verify_rejects_empty.

Theorem verify_rejects_count_mismatch : forall P pr in_tags out_tag,
  sp_n pr <> Z.of_nat (length in_tags) -> verify P pr in_tags out_tag = false.
Proof. intros P pr i o H. destruct (verify P pr i o) eqn:E; [apply verify_iff in E; tauto | reflexivity]. Qed.
Print Assumptions verify_rejects_count_mismatch.

Theorem verify_rejects_more_used_than_total : forall P pr in_tags out_tag,
  sp_n pr < n_used_inputs pr -> verify P pr in_tags out_tag = false.
Proof. intros P pr i o H. destruct (verify P pr i o) eqn:E; [apply verify_iff in E; lia | reflexivity]. Qed.
Print Assumptions verify_rejects_more_used_than_total.

Theorem verify_rejects_scalar_ge_n : forall P pr in_tags out_tag i,
  (i < Z.to_nat (n_used_inputs pr))%nat -> cn P <= be_val (proof_scalar_bytes pr i) ->
  verify P pr in_tags out_tag = false.
Proof.
  intros P pr it o i Hi H. destruct (verify P pr it o) eqn:E; [| reflexivity].
  apply verify_iff in E. destruct E as (_ & _ & _ & _ & E & _). specialize (E i Hi). lia.
Qed.
Print Assumptions verify_rejects_scalar_ge_n.

(* verification returns 1 EXACTLY when the counts are consistent, every stored ring scalar is < n, and the
   Borromean ring signature (Model/Borromean.v) over the keys output - selected input_i holds *)
Theorem verify_exact : forall P pr in_tags out_tag,
  verify P pr in_tags out_tag = true <->
  (n_used_inputs pr <> 0 /\ n_used_inputs pr <= sp_n pr /\ n_used_inputs pr <= 256 /\
   sp_n pr = Z.of_nat (length in_tags) /\
   (forall i, (i < Z.to_nat (n_used_inputs pr))%nat -> be_val (proof_scalar_bytes pr i) < cn P) /\
   borromean_verify P (firstn 32 (sp_data pr))
     (map (fun c => be_val c mod cn P) (data_chunks (sp_data pr) (Z.to_nat (n_used_inputs pr))))
     (fst (compute_public_keys P in_tags 0 (sp_used pr) (tag_load out_tag) 0 0))
     [Z.to_nat (n_used_inputs pr)] 1 (genmessage in_tags out_tag) = true).
Proof. exact verify_iff. Qed.
Print Assumptions verify_exact.

(* initialize: success => the reported index is selected in the bitmap, its tag IS the output tag, it is a
   valid index, and the return value (iterations) is in 1 .. max(1, n_max_iterations) *)
Theorem initialize_sound : forall tags n_to_use out n_max seed it idx used,
  (0 < length tags <= 256)%nat ->
  initialize tags n_to_use out n_max seed = InitOk it idx used ->
  bit_test used idx = true /\ nth (Z.to_nat idx) tags [] = out /\
  0 <= idx < Z.of_nat (length tags) /\ 1 <= it <= Z.max 1 n_max /\ length used = 32%nat.
Proof.
  intros tags k out n_max seed it idx used Hlen H.
  apply init_loop_ok in H; [| reflexivity | lia]. destruct H as ((L & _ & B & E & R) & I).
  split; [exact B | split; [exact E | split; [exact R | split; [lia | exact L]]]].
Qed.
Print Assumptions initialize_sound.

(* ... and exactly n_to_use bits are set in the bitmap *)
Theorem initialize_selects_n_to_use : forall tags n_to_use out n_max seed it idx used,
  (0 < length tags <= 256)%nat -> 0 <= n_to_use ->
  initialize tags n_to_use out n_max seed = InitOk it idx used -> count_bits used = n_to_use.
Proof.
  intros tags k out n_max seed it idx used Hlen Hk H.
  apply init_loop_ok in H; [| reflexivity | lia]. destruct H as ((_ & C & _) & _). rewrite C. apply Z2Nat.id, Hk.
Qed.
Print Assumptions initialize_selects_n_to_use.

(* the iteration limit is modelled exactly: the model can abstain only inside the rejection-sampling loops *)
Theorem initialize_abstains_only_inner : forall tags k out n_max seed,
  initialize tags k out n_max seed = InitOutOfFuel ->
  exists c, pick_n (Z.to_nat k) c (Z.of_nat (length tags)) tags out (zeros 32) None = None.
Proof. intros tags k out n_max seed H. eapply init_loop_fuel_exact; [| | exact H]; lia. Qed.
Print Assumptions initialize_abstains_only_inner.

(* [MF] completeness of one Borromean ring (the way this module and the whitelist module use it): a signature
   made for the ring s_pre ++ [signer] ++ s_suf with secret sec, nonce k and non-zero forged scalars over
   keys of which none is the point at infinity verifies; the signer's scalar it writes is in (0, n) *)
Theorem borromean_single_ring_sign_verifies : forall P, MathFacts P -> forall m s_pre sx s_suf p_pre p_suf k sec e0 s',
  length s_pre = length p_pre -> length s_suf = length p_suf ->
  0 <= k < cn P -> 0 <= sec < cn P ->
  forallb nz s_pre = true -> forallb nz s_suf = true ->
  forallb ninf p_pre = true -> forallb ninf p_suf = true ->
  is_inf (Curve.pmul P sec (Curve.G P)) = false ->
  borromean_sign P (s_pre ++ sx :: s_suf) (p_pre ++ Curve.pmul P sec (Curve.G P) :: p_suf) [k] [sec]
                 [length (s_pre ++ sx :: s_suf)] [length s_pre] 1 m = Some (e0, s') ->
  borromean_verify P e0 s' (p_pre ++ Curve.pmul P sec (Curve.G P) :: p_suf) [length (s_pre ++ sx :: s_suf)] 1 m = true /\
  exists snew, s' = s_pre ++ snew :: s_suf /\ 0 < snew < cn P /\ length e0 = 32%nat.
Proof.
  intros P MF m s_pre sx s_suf p_pre p_suf k sec e0 s' L1 L2 Hk Hsec F1 F2 F3 F4 Hinf H. unfold nz, ninf in *.
  destruct (ring1_sign_verifies_idx P MF m (s_pre ++ sx :: s_suf) (p_pre ++ Curve.pmul P sec (Curve.G P) :: p_suf)
              (length s_pre) k sec e0 s') as (Hv & Le & snew & R & ->); auto.
  - rewrite !app_length. cbn [length]. lia.
  - rewrite app_length. cbn [length]. lia.
  - rewrite firstn_app_len. exact F1.
  - rewrite skipn_app_len_S. exact F2.
  - rewrite forallb_app. cbn [forallb]. rewrite F3, F4, Hinf. reflexivity.
  - rewrite L1. apply nth_middle.
  - rewrite firstn_app_len, skipn_app_len_S in *. split; [exact Hv | exists snew; auto].
Qed.
Print Assumptions borromean_single_ring_sign_verifies.

(* [MF] generate => verify: if generation succeeds with a blinding-key difference bkey that matches the ring
   key at the signer's position (output - input_index = bkey*G), the proof it writes verifies against the same
   ephemeral tags.  Further premises: one ring key per set bitmap bit (bitmaps without padding bits), no ring
   key at infinity (no selected input equals the output), hash-derived forged scalars non-zero. *)
Theorem generate_verifies : forall P, MathFacts P -> cn P < 2 ^ 256 ->
  forall pr in_tags out_tag input_index in_key out_key pr' pubs ridx bkey,
  sp_n pr <= 256 ->
  compute_public_keys P in_tags 0 (sp_used pr) (tag_load out_tag) input_index 0 = (pubs, ridx) ->
  bkey = sc_add P (fst (sc_of_b32 P out_key)) (sc_neg P (fst (sc_of_b32 P in_key))) ->
  length pubs = Z.to_nat (n_used_inputs pr) -> 0 <= ridx < n_used_inputs pr ->
  nth (Z.to_nat ridx) pubs None = Curve.pmul P bkey (Curve.G P) ->
  forallb ninf pubs = true ->
  (forall bs, genrand P (Z.to_nat (n_used_inputs pr)) bkey = Some bs -> forallb nz bs = true) ->
  generate P pr in_tags out_tag input_index in_key out_key = Some pr' ->
  verify P pr' in_tags out_tag = true.
Proof. exact SurjectionComplete.generate_verifies. Qed.
Print Assumptions generate_verifies.
