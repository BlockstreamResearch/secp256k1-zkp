(* C17 - Schnorr half-aggregation: exact length, incremental = one-shot over any split, rejection clauses.
   The lemmas used are in Proofs/HalfaggProofs.v and (completeness, under MathFacts) Proofs/HalfaggComplete.v.  Model: Model/Halfagg.v.
   The premises 0 < cn P <= 2^256 say that a scalar fits its 32-byte encoding (true for secp256k1 and for the
   order-13 group: Examples premises_secp256k1, premises_order13).  No group law is needed. *)
From Coq Require Import ZArith List Bool Lia.
Require Import Spec.Params Spec.Field Spec.Curve Spec.Bytes Model.Base Model.Schnorr Model.Halfagg Proofs.HalfaggProofs.
Require Import Proofs.MathFacts Proofs.HalfaggComplete.
Import ListNotations.
Local Open Scope Z_scope.

(* every call either succeeds with *aggsig_len = 32*(n+1) exactly (and had room for it), or returns 0 and
   leaves *aggsig_len and the buffer untouched; n = n_before + n_new in size_t arithmetic *)
Theorem aggregate_length : forall P aggsig alen pks msgs sigs nb nn,
  let r := halfagg_inc P aggsig alen pks msgs sigs nb nn in
  let n := (nb + nn) mod size_max in
  (ret_of r = 1 /\ exists agg len out, aggsig = Some agg /\ alen = Some len /\ 32 * (n + 1) <= len /\
                     r = [AInt 1; AInt (32 * (n + 1)); ABytes out])
  \/ (ret_of r = 0 /\ exists tl, r = AInt 0 :: match alen with Some l => AInt l | None => ANone end
                                        :: match aggsig with Some a => ABytes a | None => ANone end :: tl).
Proof. exact aggregate_length. Qed.
Print Assumptions aggregate_length.

(* on well-formed input with enough room the call succeeds and the buffer keeps its size *)
Theorem aggregate_bytes_length : forall P agg len (d w : list trip),
  Forall (wf_trip) d -> Forall (wf_trip) w ->
  Z.of_nat (length d + length w) < size_max ->
  32 * (Z.of_nat (length d + length w) + 1) <= len -> len <= Z.of_nat (length agg) ->
  exists out, halfagg_inc P (Some agg) (Some len) (Some (map t_pk (d ++ w))) (Some (map t_msg (d ++ w))) (Some (map t_sig w))
                          (Z.of_nat (length d)) (Z.of_nat (length w))
              = [AInt 1; AInt (32 * (Z.of_nat (length d + length w) + 1)); ABytes out]
              /\ length out = length agg.
Proof.
  intros P agg len d w Hd Hw Hsz Hlen Hcap. eexists. split; [apply halfagg_inc_ok; assumption|].
  apply inc_items_length; [apply Forall_wf_items, Hw | rewrite !map_length; lia].
Qed.
Print Assumptions aggregate_bytes_length.

(* HEADLINE: for every split  w0, parts  of a sequence of (key, message, signature) triples, the chain of
   incremental calls (each started on the buffer the previous call left, n_before = number done so far)
   succeeds and leaves the same buffer, byte for byte, as ONE call of schnorrsig_aggregate on the whole
   sequence; parts may be empty lists.  api_chain is defined in Proofs/HalfaggProofs.v. *)
Theorem inc_aggregate_assoc : forall P, 0 < cn P -> cn P <= 2 ^ 256 ->
  forall parts (w0 : list trip) agg cap,
  let all := w0 ++ concat parts in
  Forall wf_trip w0 -> Forall (Forall wf_trip) parts ->
  Z.of_nat (length all) < size_max ->
  32 * (Z.of_nat (length all) + 1) <= cap -> cap <= Z.of_nat (length agg) ->
  exists out,
    api_chain P cap agg [] (w0 :: parts) = Some out /\
    halfagg_aggregate P (Some agg) (Some cap) (Some (map t_pk all)) (Some (map t_msg all)) (Some (map t_sig all))
                      (Z.of_nat (length all))
      = [AInt 1; AInt (32 * (Z.of_nat (length all) + 1)); ABytes out] /\
    length out = length agg.
Proof. exact inc_aggregate_assoc. Qed.
Print Assumptions inc_aggregate_assoc.

(* two-call form, with any admissible *aggsig_len for the second call *)
Theorem inc_aggregate_assoc2 : forall P, 0 < cn P -> cn P <= 2 ^ 256 ->
  forall agg len len2 (d w : list trip) l1 out1,
  Forall wf_trip d -> Forall wf_trip w ->
  Z.of_nat (length d + length w) < size_max ->
  32 * (Z.of_nat (length d + length w) + 1) <= len -> len <= Z.of_nat (length agg) ->
  32 * (Z.of_nat (length d + length w) + 1) <= len2 ->
  halfagg_aggregate P (Some agg) (Some len) (Some (map t_pk d)) (Some (map t_msg d)) (Some (map t_sig d)) (Z.of_nat (length d))
    = [AInt 1; AInt l1; ABytes out1] ->
  halfagg_inc P (Some out1) (Some len2) (Some (map t_pk (d ++ w))) (Some (map t_msg (d ++ w))) (Some (map t_sig w))
              (Z.of_nat (length d)) (Z.of_nat (length w))
  = halfagg_aggregate P (Some agg) (Some len) (Some (map t_pk (d ++ w))) (Some (map t_msg (d ++ w))) (Some (map t_sig (d ++ w)))
                      (Z.of_nat (length (d ++ w))).
Proof.
  intros P Hn Hf agg len len2 d w l1 out1 Hd Hw Hsz Hlen Hcap Hlen2 H1.
  rewrite halfagg_aggregate_ok in H1 by (try assumption; lia). injection H1 as _ <-.
  rewrite halfagg_inc_ok, halfagg_aggregate_ok, app_length, map_app
    by (rewrite ?app_length; first [assumption | apply Forall_app; split; assumption]).
  rewrite <- (inc_items_assoc P Hn Hf), map_map by (rewrite ?map_length; first [apply Forall_wf_items, Hd | cbn [length]; lia]).
  reflexivity.
Qed.
Print Assumptions inc_aggregate_assoc2.

(* the same on the data path, from ANY starting point (b0 = pairs already inside the aggregate) *)
Theorem inc_chain_eq_oneshot : forall P, 0 < cn P -> cn P <= 2 ^ 256 ->
  forall parts agg b0 l0,
  Forall wf_item l0 -> Forall (Forall wf_item) parts ->
  (32 * (length b0 + length l0 + length (concat parts) + 1) <= length agg)%nat ->
  inc_chain P (inc_items P agg b0 l0) (b0 ++ map item_km l0) parts = inc_items P agg b0 (l0 ++ concat parts).
Proof. exact inc_chain_eq_oneshot. Qed.
Print Assumptions inc_chain_eq_oneshot.

(* ---- verification: rejection clauses (ret_of = the returned int; NULL arguments also give 0) ---- *)
Theorem aggverify_rejects_length : forall P pks msgs n aggsig len,
  len <> 32 * (n + 1) -> ret_of (halfagg_aggverify P pks msgs n aggsig len) = 0.
Proof.
  intros P pks msgs n aggsig len H.
  destruct (aggverify_accepts P pks msgs n aggsig len) as [E|(agg & _ & Hl & _)]; [exact E | contradiction].
Qed.
Print Assumptions aggverify_rejects_length.

Theorem aggverify_rejects_r_ge_p : forall P pks msgs n agg len i,
  (i < Z.to_nat n)%nat -> (Z.to_nat n <= length pks)%nat -> (Z.to_nat n <= length msgs)%nat ->
  cp P <= be_val (slice (32 * i) 32 agg) ->
  ret_of (halfagg_aggverify P (Some pks) (Some msgs) n (Some agg) len) = 0.
Proof.
  intros P pks msgs n agg len i Hi Hp Hm H. apply (aggverify_bad_chunk P pks msgs n agg len i Hi Hp Hm).
  rewrite r_ok_lift. unfold lift_x. replace (cp P <=? _) with true by lia. rewrite orb_true_r. reflexivity.
Qed.
Print Assumptions aggverify_rejects_r_ge_p.

Theorem aggverify_rejects_offcurve : forall P pks msgs n agg len i,
  (i < Z.to_nat n)%nat -> (Z.to_nat n <= length pks)%nat -> (Z.to_nat n <= length msgs)%nat ->
  lift_x P (be_val (slice (32 * i) 32 agg)) false = None ->
  ret_of (halfagg_aggverify P (Some pks) (Some msgs) n (Some agg) len) = 0.
Proof.
  intros P pks msgs n agg len i Hi Hp Hm H. apply (aggverify_bad_chunk P pks msgs n agg len i Hi Hp Hm).
  rewrite r_ok_lift, H. reflexivity.
Qed.
Print Assumptions aggverify_rejects_offcurve.

Theorem aggverify_rejects_s_ge_n : forall P pks msgs n aggsig len,
  (forall agg, aggsig = Some agg -> cn P <= be_val (slice (32 * Z.to_nat n) 32 agg)) ->
  ret_of (halfagg_aggverify P pks msgs n aggsig len) = 0.
Proof.
  intros P pks msgs n aggsig len H.
  destruct (aggverify_accepts P pks msgs n aggsig len) as [E|(agg & Ha & _ & _ & _ & Hs & _)]; [exact E|].
  specialize (H agg Ha). lia.
Qed.
Print Assumptions aggverify_rejects_s_ge_n.

Theorem aggverify_ret_bool : forall P pks msgs n aggsig len,
  let r := ret_of (halfagg_aggverify P pks msgs n aggsig len) in r = 0 \/ r = 1.
Proof. exact aggverify_ret_bool. Qed.
Print Assumptions aggverify_ret_bool.

(* closed form of the one-shot aggregate: the r_i in order, then s = sum_i z_i*s_i mod n with z_0 = 1 and
   z_i = int(TaggedHash("HalfAgg/randomizer", r_0||pk_0||m_0|| ... ||r_i||pk_i||m_i)) mod n (agg_sum in
   Proofs/HalfaggProofs.v; the s_i are taken as the integers of their 32 bytes, i.e. silently reduced) *)
Theorem aggregate_bytes_spec : forall P, 0 < cn P -> forall agg new,
  inc_items P agg [] new =
  flat_map item_r new ++ sc_to_b32 (agg_sum P new [] 0 mod cn P) ++ skipn (32 * (length new + 1)) agg.
Proof. exact aggregate_bytes_spec. Qed.
Print Assumptions aggregate_bytes_spec.

(* COMPLETENESS [MF]: under the group premises (MathFacts: p, n prime, the chord-and-tangent law is an abelian
   group law on the curve, n*G = infinity) the one-shot aggregate of signatures that satisfy the BIP-340
   equation in its lifted form  s*G = lift_x(r) + e*P  (sig_valid in Proofs/HalfaggComplete.v) is produced
   successfully and accepted by aggregate verification for the same keys and messages, with the returned
   length.  By inc_aggregate_assoc every incrementally built aggregate is the same byte string.
   Non-vacuity: Examples toy_sig_valid / toy_aggregate_verifies on the toy curve where MathFacts is proved. *)
Theorem aggregate_verifies : forall P, MathFacts P -> cn P <= 2 ^ 256 ->
  forall (w : list trip) agg len,
  Forall (sig_valid P) w ->
  Z.of_nat (length w) < size_max ->
  32 * (Z.of_nat (length w) + 1) <= len -> len <= Z.of_nat (length agg) ->
  exists out,
    halfagg_aggregate P (Some agg) (Some len) (Some (map t_pk w)) (Some (map t_msg w)) (Some (map t_sig w)) (Z.of_nat (length w))
      = [AInt 1; AInt (32 * (Z.of_nat (length w) + 1)); ABytes out] /\
    halfagg_aggverify P (Some (map t_pk w)) (Some (map t_msg w)) (Z.of_nat (length w)) (Some out) (32 * (Z.of_nat (length w) + 1))
      = [AInt 1].
Proof. exact aggregate_verifies. Qed.
Print Assumptions aggregate_verifies.

(* EXACTNESS: for non-NULL arguments verification returns 1 exactly when the length is 32*(n+1), every key
   object loads, every r_i is < p and lifts to a curve point, s < n, and the half-aggregation equation
   -(s*G) + sum_i z_i*(e_i*P_i + lift_x(r_i)) = infinity holds (spec_rhs/spec_term in Proofs/HalfaggProofs.v
   compute that sum with no check inside; z_0 = 1) *)
Theorem aggverify_eq_spec : forall P pks msgs n agg len,
  let nn := Z.to_nat n in
  let its := combine (combine (firstn nn pks) (firstn nn msgs)) (chunks32 nn agg) in
  let sv := be_val (slice (32 * nn) 32 agg) in
  ret_of (halfagg_aggverify P (Some pks) (Some msgs) n (Some agg) len) = 1 <->
  (len = 32 * (n + 1) /\ 0 <= n /\ Forall (item_ok P) its /\ sv < cn P /\
   padd P (pneg P (pmul P (sv mod cn P) (G P))) (spec_rhs P its [] 0 None) = None).
Proof. exact aggverify_eq_spec. Qed.
Print Assumptions aggverify_eq_spec.
