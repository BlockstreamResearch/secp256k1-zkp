(* C14 - ECDSA adaptor signatures: the 162-byte format is checked exactly, verification is the DLEQ proof
   and the adaptor equation of the specification, recovery refuses unrelated signatures, failures zero the
   outputs.  Statements, each an instance or short corollary of a lemma of Proofs/AdaptorProofs.v or
   Proofs/AdaptorComplete.v.
   Model: Model/Adaptor.v (tied to the C code by the correspondence check of ./check C14). *)
From Coq Require Import ZArith List Bool Lia.
Require Import Spec.Params Spec.Field Spec.Curve Spec.Bytes Spec.Sha256.
Require Import Model.Base Model.Der Model.Adaptor.
Require Import Proofs.MathFacts Proofs.Sha256Lemmas Proofs.BaseLemmas Proofs.SecpConsts Proofs.Toy Proofs.AdaptorProofs Proofs.AdaptorComplete.
Import ListNotations.
Local Open Scope Z_scope.
Notation S := secp256k1.

(* The three midstates hard-coded in the C code are the SHA-256 states after SHA256(tag)||SHA256(tag). *)
Theorem midstates_correct :
  tagged_midstate tag_adaptor_non = midstate_adaptor_non /\
  tagged_midstate tag_adaptor_aux = midstate_adaptor_aux /\
  tagged_midstate tag_dleq = midstate_dleq.
Proof. exact midstates_correct. Qed.
Print Assumptions midstates_correct.

(* Hence the hardened nonce function is the BIP-340 style tagged hash
   H_algo((key xor H_aux(aux)) || pk33 || msg32) for EVERY algo string (the two fast paths included). *)
Theorem nonce_function_eq_tagged :
  forall msg32 key32 pk33 algo data,
    nonce_function_ecdsa_adaptor msg32 key32 pk33 (Some algo) data =
    Some (tagged_hash algo ((match data with
                             | Some d => xor_bytes (tagged_hash tag_adaptor_aux d) key32
                             | None => key32 end) ++ pk33 ++ msg32)).
Proof.
  intros. unfold nonce_function_ecdsa_adaptor. rewrite adaptor_tag_state_is_tagged.
  rewrite <- (proj1 (proj2 midstates_correct)), <- tagged_hash_from_midstate.
  destruct data; [rewrite <- tagged_hash_from_midstate|]; reflexivity.
Qed.
Print Assumptions nonce_function_eq_tagged.

(* Which of the five fields are range-checked, and how: R and R' must be valid compressed points; R.x is
   reduced mod n silently and must be non-zero; s' must be in [1, n) (no reduction); e is reduced mod n
   silently; the DLEQ response s must be < n. *)
Theorem codec_exact :
  forall b R sigr Rp sp e s,
    adaptor_sig_deserialize_full S b = Some (R, sigr, Rp, sp, e, s) <->
    ( eckey_pubkey_parse S (slice 0 33 b) = Some R /\
      sigr = be_val (slice 1 32 b) mod cn S /\ sigr <> 0 /\
      eckey_pubkey_parse S (slice 33 33 b) = Some Rp /\
      sp = be_val (slice 66 32 b) /\ 0 < sp < cn S /\
      e = be_val (slice 98 32 b) mod cn S /\
      s = be_val (slice 130 32 b) mod cn S /\ be_val (slice 130 32 b) < cn S ).
Proof. exact (codec_exact S). Qed.
Print Assumptions codec_exact.

(* decrypt and recover only look at R.x (non-zero mod n, NOT required to be on the curve) and s' *)
Theorem codec_part_exact :
  forall b sigr sp,
    adaptor_sig_deserialize_part S b = Some (sigr, sp) <->
    ( sigr = be_val (slice 1 32 b) mod cn S /\ sigr <> 0 /\ sp = be_val (slice 66 32 b) /\ 0 < sp < cn S ).
Proof. exact (codec_part_exact S). Qed.
Print Assumptions codec_part_exact.

(* a 33-byte point field is accepted exactly when: tag 2 or 3, x < p, x^3 + 7 is a square *)
Theorem point_field_exact :
  forall tag xs R, length xs = 32%nat ->
    (eckey_pubkey_parse S (tag :: xs) = Some R <->
     ((tag = 2 \/ tag = 3) /\ be_val xs < cp S /\ lift_x S (be_val xs) (tag =? 3) = R /\ R <> None)).
Proof. exact (parse33_exact S). Qed.
Print Assumptions point_field_exact.

(* Verification returns 1 exactly when the specification holds: the string deserializes, the DLEQ proof
   verifies for (R', Y, R) and R' = s'^-1 (m*G + R.x*X), not the point at infinity. *)
Theorem verify_eq_spec :
  forall sig162 pkobj msg32 encobj X Y,
    pk_load pkobj = Some X -> pk_load encobj = Some Y ->
    adaptor_verify S sig162 pkobj msg32 encobj =
    [AInt (b2z (adaptor_verify_spec S sig162 X (fst (sc_of_b32 S msg32)) Y))].
Proof. exact (verify_eq_spec S). Qed.
Print Assumptions verify_eq_spec.

Theorem dleq_verify_exact :
  forall s e p1 gen2 p2,
    dleq_verify S s e p1 gen2 p2 = true <->
    (let r1 := padd S (pmul S (sc_neg S e) p1) (pmul S s (G S)) in
     let r2 := padd S (pmul S s gen2) (pmul S (sc_neg S e) p2) in
     r1 <> None /\ r2 <> None /\ sc_add S (dleq_challenge S gen2 r1 r2 p1 p2) (sc_neg S e) = 0).
Proof. exact (dleq_verify_exact S). Qed.
Print Assumptions dleq_verify_exact.

(* named rejections: for ALL other inputs *)
Theorem verify_rejects_zero_sp :
  forall sig162 pkobj msg32 encobj,
    be_val (slice 66 32 sig162) = 0 -> adaptor_verify S sig162 pkobj msg32 encobj = [AInt 0].
Proof. intros. apply (verify_rejects_codec S). auto 6. Qed.
Print Assumptions verify_rejects_zero_sp.
Theorem verify_rejects_sp_ge_n :
  forall sig162 pkobj msg32 encobj,
    cn S <= be_val (slice 66 32 sig162) -> adaptor_verify S sig162 pkobj msg32 encobj = [AInt 0].
Proof. intros. apply (verify_rejects_codec S). auto 6. Qed.
Print Assumptions verify_rejects_sp_ge_n.
Theorem verify_rejects_dleq_scalar_ge_n :
  forall sig162 pkobj msg32 encobj,
    cn S <= be_val (slice 130 32 sig162) -> adaptor_verify S sig162 pkobj msg32 encobj = [AInt 0].
Proof. intros. apply (verify_rejects_codec S). auto 7. Qed.
Print Assumptions verify_rejects_dleq_scalar_ge_n.
Theorem verify_rejects_zero_sigr :
  forall sig162 pkobj msg32 encobj,
    be_val (slice 1 32 sig162) mod cn S = 0 -> adaptor_verify S sig162 pkobj msg32 encobj = [AInt 0].
Proof. intros. apply (verify_rejects_codec S). auto. Qed.
Print Assumptions verify_rejects_zero_sigr.
Theorem verify_rejects_invalid_R :
  forall sig162 pkobj msg32 encobj,
    eckey_pubkey_parse S (slice 0 33 sig162) = None -> adaptor_verify S sig162 pkobj msg32 encobj = [AInt 0].
Proof. intros. apply (verify_rejects_codec S). auto. Qed.
Print Assumptions verify_rejects_invalid_R.
Theorem verify_rejects_invalid_Rp :
  forall sig162 pkobj msg32 encobj,
    eckey_pubkey_parse S (slice 33 33 sig162) = None -> adaptor_verify S sig162 pkobj msg32 encobj = [AInt 0].
Proof. intros. apply (verify_rejects_codec S). auto. Qed.
Print Assumptions verify_rejects_invalid_Rp.
Theorem point_field_rejects :
  forall tag xs, length xs = 32%nat ->
    (tag <> 2 /\ tag <> 3) \/ cp S <= be_val xs \/ lift_x S (be_val xs) (tag =? 3) = None ->
    eckey_pubkey_parse S (tag :: xs) = None.
Proof. exact (parse33_rejects S). Qed.
Print Assumptions point_field_rejects.
Theorem verify_rejects_bad_dleq :
  forall sig162 pkobj msg32 encobj R sigr Rp sp e s Y,
    adaptor_sig_deserialize_full S sig162 = Some (R, sigr, Rp, sp, e, s) ->
    pk_load encobj = Some Y -> dleq_verify S s e Rp Y R = false ->
    adaptor_verify S sig162 pkobj msg32 encobj = [AInt 0].
Proof. intros. rewrite (verify_exact S), H, H0, H1. reflexivity. Qed.
Print Assumptions verify_rejects_bad_dleq.
(* an encryption key object that does not load is reported (one callback) only for well-formed strings *)
Theorem verify_bad_enckey :
  forall sig162 pkobj msg32 encobj,
    pk_load encobj = None ->
    adaptor_verify S sig162 pkobj msg32 encobj =
    match adaptor_sig_deserialize_full S sig162 with None => [AInt 0] | Some _ => [AInt 0; AIll 1] end.
Proof.
  intros. rewrite (verify_exact S), H.
  destruct (adaptor_sig_deserialize_full S sig162) as [[[[[[R sigr] Rp] sp] e] s]|]; reflexivity.
Qed.
Print Assumptions verify_bad_enckey.

(* decrypt: failure always leaves an all-zero signature object; named causes of failure; low-S output *)
Theorem decrypt_failure_zeroes :
  forall deckey32 sig162,
    adaptor_decrypt S deckey32 sig162 = [AInt 0; ABytes (zeros 64)] \/
    exists sigr s, adaptor_decrypt S deckey32 sig162 = [AInt 1; ABytes (sig_obj sigr s)].
Proof.
  intros. rewrite (decrypt_exact S).
  destruct (adaptor_sig_deserialize_part S sig162) as [[sigr sp]|]; [destruct (_ && _)|]; eauto.
Qed.
Print Assumptions decrypt_failure_zeroes.
Theorem decrypt_rejects_zero_deckey :
  forall deckey32 sig162, be_val deckey32 mod cn S = 0 -> adaptor_decrypt S deckey32 sig162 = [AInt 0; ABytes (zeros 64)].
Proof.
  intros. rewrite (decrypt_exact S), H, andb_false_r.
  destruct (adaptor_sig_deserialize_part S sig162) as [[sigr sp]|]; reflexivity.
Qed.
Print Assumptions decrypt_rejects_zero_deckey.
Theorem decrypt_rejects_deckey_ge_n :
  forall deckey32 sig162, cn S <= be_val deckey32 -> adaptor_decrypt S deckey32 sig162 = [AInt 0; ABytes (zeros 64)].
Proof.
  intros. apply Z.ltb_ge in H. rewrite (decrypt_exact S), H.
  destruct (adaptor_sig_deserialize_part S sig162) as [[sigr sp]|]; reflexivity.
Qed.
Print Assumptions decrypt_rejects_deckey_ge_n.
Theorem decrypt_rejects_bad_sig :
  forall deckey32 sig162, adaptor_sig_deserialize_part S sig162 = None ->
    adaptor_decrypt S deckey32 sig162 = [AInt 0; ABytes (zeros 64)].
Proof. intros. rewrite (decrypt_exact S), H. reflexivity. Qed.
Print Assumptions decrypt_rejects_bad_sig.
Theorem decrypt_success_low_s :
  forall deckey32 sig162 sigr sp,
    adaptor_sig_deserialize_part S sig162 = Some (sigr, sp) ->
    be_val deckey32 < cn S -> be_val deckey32 mod cn S <> 0 ->
    let s0 := sc_mul S (sc_inv S (be_val deckey32 mod cn S)) sp in
    let s := if sc_is_high S s0 then sc_neg S s0 else s0 in
    adaptor_decrypt S deckey32 sig162 = [AInt 1; ABytes (sig_obj sigr s)] /\ sc_is_high S s = false.
Proof.
  intros. split; [|apply Z.ltb_ge, (sc_low_s S eq_refl), Z.mod_pos_bound; reflexivity].
  apply Z.ltb_lt in H0. apply Z.eqb_neq in H1. rewrite (decrypt_exact S), H, H0, H1. reflexivity.
Qed.
Print Assumptions decrypt_success_low_s.

(* recover: r mismatch => 0, whatever the other inputs; s = 0 => 0; wrong encryption key => 0 *)
Theorem recover_rejects_unrelated :
  forall sigobj sig162 encobj,
    be_val (slice 1 32 sig162) mod cn S <> be_val (firstn 32 sigobj) mod cn S ->
    ret_of (adaptor_recover S sigobj sig162 encobj) = 0.
Proof. exact (recover_rejects_unrelated S). Qed.
Print Assumptions recover_rejects_unrelated.
Theorem recover_rejects_zero_s :
  forall sigobj sig162 encobj,
    be_val (skipn 32 sigobj) mod cn S = 0 -> ret_of (adaptor_recover S sigobj sig162 encobj) = 0.
Proof.
  intros sigobj sig162 encobj H. rewrite (recover_exact S), H.
  destruct (adaptor_sig_deserialize_part S sig162) as [[sigr sp]|], (pk_load encobj); reflexivity.
Qed.
Print Assumptions recover_rejects_zero_s.
Theorem recover_rejects_wrong_enckey :
  forall sigobj sig162 encobj sigr sp Y,
    adaptor_sig_deserialize_part S sig162 = Some (sigr, sp) -> pk_load encobj = Some Y ->
    px (pmul S (sc_mul S (sc_inv S (be_val (skipn 32 sigobj) mod cn S)) sp) (G S)) <> px Y ->
    adaptor_recover S sigobj sig162 encobj = [AInt 0].
Proof.
  intros sigobj sig162 encobj sigr sp Y H H0 H1. apply Z.eqb_neq in H1.
  rewrite (recover_exact S), H, H0. cbv zeta. rewrite H1, andb_false_r. reflexivity.
Qed.
Print Assumptions recover_rejects_wrong_enckey.
Theorem recover_success_form :
  forall sigobj sig162 encobj dk,
    adaptor_recover S sigobj sig162 encobj = [AInt 1; ABytes dk] ->
    exists sigr sp Y,
      adaptor_sig_deserialize_part S sig162 = Some (sigr, sp) /\ pk_load encobj = Some Y /\
      sigr = be_val (firstn 32 sigobj) mod cn S /\ be_val (skipn 32 sigobj) mod cn S <> 0 /\
      let y := sc_mul S (sc_inv S (be_val (skipn 32 sigobj) mod cn S)) sp in
      px (pmul S y (G S)) = px Y /\
      dk = sc_to_b32 (if Bool.eqb (Z.odd (py (pmul S y (G S)))) (Z.odd (py Y)) then y else sc_neg S y).
Proof. exact (recover_success_form S). Qed.
Print Assumptions recover_success_form.

(* encrypt: after the argument checks every failure leaves 162 zero bytes; named causes *)
Theorem encrypt_failure_zeroes :
  forall kind seckey32 encobj msg32 ndata,
    adaptor_encrypt S kind seckey32 encobj msg32 ndata = [AInt 0; AIll 1] /\ pk_load encobj = None \/
    adaptor_encrypt S kind seckey32 encobj msg32 ndata = [AInt 0; ABytes (zeros 162)] \/
    exists sig, adaptor_encrypt S kind seckey32 encobj msg32 ndata = [AInt 1; ABytes sig] /\ length sig = 162%nat.
Proof. exact (encrypt_failure_zeroes S). Qed.
Print Assumptions encrypt_failure_zeroes.
Theorem encrypt_rejects_invalid_seckey :
  forall kind seckey32 encobj msg32 ndata,
    seckey_of_b32 S seckey32 = None -> ret_of (adaptor_encrypt S kind seckey32 encobj msg32 ndata) = 0.
Proof.
  intros kind seckey32 encobj msg32 ndata H.
  destruct (encrypt_cases S kind seckey32 encobj msg32 ndata) as [[E _]|[E|(R & Rp & sp & e & s & E)]];
    [rewrite E; reflexivity ..|].
  apply encrypt_ok_inv in E. destruct E as (Y & nb & d & ds & de & _ & _ & E & _). congruence.
Qed.
Print Assumptions encrypt_rejects_invalid_seckey.
Theorem encrypt_rejects_failing_nonce_fn :
  forall kind seckey32 encobj msg32 ndata Y,
    pk_load encobj = Some Y ->
    adaptor_nonce_fn kind msg32 seckey32 (ser33 Y) tag_adaptor_non ndata = None ->
    adaptor_encrypt S kind seckey32 encobj msg32 ndata = [AInt 0; ABytes (zeros 162)].
Proof.
  intros kind seckey32 encobj msg32 ndata Y HL H.
  destruct (encrypt_cases S kind seckey32 encobj msg32 ndata) as [[_ E]|[E|(R & Rp & sp & e & s & E)]];
    [congruence|exact E|].
  apply encrypt_ok_inv in E. destruct E as (Y' & nb & d & ds & de & HL' & E & _). congruence.
Qed.
Print Assumptions encrypt_rejects_failing_nonce_fn.
Theorem encrypt_rejects_zero_nonce :
  forall kind seckey32 encobj msg32 ndata Y nb,
    pk_load encobj = Some Y ->
    adaptor_nonce_fn kind msg32 seckey32 (ser33 Y) tag_adaptor_non ndata = Some nb ->
    be_val nb mod cn S = 0 ->
    adaptor_encrypt S kind seckey32 encobj msg32 ndata = [AInt 0; ABytes (zeros 162)].
Proof.
  intros kind seckey32 encobj msg32 ndata Y nb0 HL H Hz.
  destruct (encrypt_cases S kind seckey32 encobj msg32 ndata) as [[_ E]|[E|(R & Rp & sp & e & s & E)]];
    [congruence|exact E|].
  apply encrypt_ok_inv in E. destruct E as (Y' & nb & d & ds & de & HL' & E & _ & Hk & _).
  rewrite HL in HL'. injection HL' as <-. rewrite H in E. injection E as <-. contradiction.
Qed.
Print Assumptions encrypt_rejects_zero_nonce.

(* completeness, under the mathematical premises about the curve (explicit hypotheses, not axioms) *)
(* [MF] An honest DLEQ proof verifies: for a base Y of order dividing n, witness sk and nonce k. *)
Theorem dleq_complete :
  MathFacts S ->
  forall Y sk k,
    ordn S Y -> 0 <= sk < cn S -> 0 <= k < cn S ->
    pmul S k (G S) <> None -> pmul S k Y <> None ->
    let P1 := pmul S sk (G S) in let P2 := pmul S sk Y in
    let e := dleq_challenge S Y (pmul S k (G S)) (pmul S k Y) P1 P2 in
    let s := sc_add S (sc_mul S e sk) k in
    dleq_verify S s e P1 Y P2 = true.
Proof. intros MF. exact (dleq_complete S MF). Qed.
Print Assumptions dleq_complete.

(* [MF, InvFacts] encrypt => verify, partial: what encrypt outputs satisfies the verification specification for the
   signer's public key d*G, the same message and encryption key - PROVIDED the 162 bytes deserialize to the values
   that were serialized.  Missing for the full statement: the byte round trip of the two compressed points
   (parse (ser33 R) = R needs Euler's criterion for p, not part of MathFacts).  Y must have order dividing n
   (true for every point of the real curve, cofactor 1 - a premise here, see DESIGN.md 2.4). *)
Theorem encrypt_verifies_partial :
  MathFacts S -> InvFacts S ->
  forall kind seckey32 encobj msg32 ndata sig Y d,
    pk_load encobj = Some Y -> ordn S Y -> seckey_of_b32 S seckey32 = Some d ->
    adaptor_encrypt S kind seckey32 encobj msg32 ndata = [AInt 1; ABytes sig] ->
    exists R Rp sp e s,
      sig = adaptor_sig_serialize R Rp sp e s /\
      (adaptor_sig_deserialize_full S sig = Some (R, fst (sc_of_b32 S (fe_to_b32 (px R))), Rp, sp, e, s) ->
       adaptor_verify_spec S sig (pmul S d (G S)) (fst (sc_of_b32 S msg32)) Y = true).
Proof.
  intros MF IF kind seckey32 encobj msg32 ndata sig Y d HL [HY _].
  exact (encrypt_verifies S MF IF kind seckey32 encobj msg32 ndata sig Y d HL HY).
Qed.
Print Assumptions encrypt_verifies_partial.

(* [MF, InvFacts] decrypt then recover - from the signature AND from its negated-s twin - returns exactly the
   decryption key; the decrypted signature is low-S.  For every string whose R.x and s' fields are in range, every
   decryption key y in [1, n), encryption key object holding y*G. *)
Theorem recover_decrypt :
  MathFacts S -> InvFacts S ->
  forall deckey32 sig162 encobj sigr sp,
    adaptor_sig_deserialize_part S sig162 = Some (sigr, sp) ->
    0 < be_val deckey32 < cn S -> pk_load encobj = Some (pmul S (be_val deckey32) (G S)) ->
    exists s, adaptor_decrypt S deckey32 sig162 = [AInt 1; ABytes (sig_obj sigr s)] /\ sc_is_high S s = false /\
      adaptor_recover S (sig_obj sigr s) sig162 encobj = [AInt 1; ABytes (sc_to_b32 (be_val deckey32))] /\
      adaptor_recover S (sig_obj sigr (sc_neg S s)) sig162 encobj = [AInt 1; ABytes (sc_to_b32 (be_val deckey32))].
Proof. intros MF IF. exact (recover_decrypt S MF IF secp_n_lt_2_256 eq_refl). Qed.
Print Assumptions recover_decrypt.

(* the premises are satisfiable: on the toy curve y^2 = x^3 + 7 over F_43 (group order 31) they are PROVED, and the
   theorems hold there unconditionally *)
Example premises_satisfiable : MathFacts toy /\ InvFacts toy.
Proof. exact (conj toy_MathFacts toy_InvFacts). Qed.
Example recover_decrypt_toy :
  forall deckey32 sig162 encobj sigr sp,
    adaptor_sig_deserialize_part toy sig162 = Some (sigr, sp) ->
    0 < be_val deckey32 < cn toy -> pk_load encobj = Some (pmul toy (be_val deckey32) (G toy)) ->
    exists s, adaptor_decrypt toy deckey32 sig162 = [AInt 1; ABytes (sig_obj sigr s)] /\ sc_is_high toy s = false /\
      adaptor_recover toy (sig_obj sigr s) sig162 encobj = [AInt 1; ABytes (sc_to_b32 (be_val deckey32))] /\
      adaptor_recover toy (sig_obj sigr (sc_neg toy s)) sig162 encobj = [AInt 1; ABytes (sc_to_b32 (be_val deckey32))].
Proof. exact (AdaptorComplete.recover_decrypt toy toy_MathFacts toy_InvFacts eq_refl eq_refl). Qed.
Example encrypt_verifies_toy :
  forall kind seckey32 encobj msg32 ndata sig Y d,
    pk_load encobj = Some Y -> ordn toy Y -> seckey_of_b32 toy seckey32 = Some d ->
    adaptor_encrypt toy kind seckey32 encobj msg32 ndata = [AInt 1; ABytes sig] ->
    exists R Rp sp e s,
      sig = adaptor_sig_serialize R Rp sp e s /\
      (adaptor_sig_deserialize_full toy sig = Some (R, fst (sc_of_b32 toy (fe_to_b32 (px R))), Rp, sp, e, s) ->
       adaptor_verify_spec toy sig (pmul toy d (G toy)) (fst (sc_of_b32 toy msg32)) Y = true).
Proof.
  intros kind seckey32 encobj msg32 ndata sig Y d HL [HY _].
  exact (encrypt_verifies toy toy_MathFacts toy_InvFacts kind seckey32 encobj msg32 ndata sig Y d HL HY).
Qed.
