(* C19 - Bulletproofs++ norm argument and generators (DESIGN.md section 5, C19).
   Statements, each an instance or short corollary of a lemma of Proofs/BpppProofs.v.  [rounds_of g cv] is
   max (log2 g) (log2 (length cv)); [needed_scratch g h] = 32 * (rounds + g + h + log2 g). *)
From Coq Require Import ZArith List Bool Lia.
Require Import Spec.Params Spec.Field Spec.Curve Spec.Bytes Spec.Sha256 Model.Base Model.Bppp Proofs.BpppProofs.
Import ListNotations.
Local Open Scope Z_scope.

Theorem verify_eq_spec : forall P sm proof tr rho gens g cv C,
  norm_verify P sm proof tr rho gens g cv C = true <->
  exists nn ll lg nr xr,
    verify_pre P sm proof rho (Z.of_nat (length gens)) g (Z.of_nat (length cv)) = Some (nn, ll, lg, nr) /\
    verify_points P proof (Z.to_nat nr) = Some xr /\
    verify_equation P proof tr rho gens cv C nn ll lg nr xr = true.
Proof. exact BpppProofs.verify_eq_spec. Qed.
Print Assumptions verify_eq_spec.

Theorem verify_rejects_length : forall P sm proof tr rho gens g cv C,
  Z.of_nat (length proof) <> 65 * rounds_of g cv + 64 ->
  norm_verify P sm proof tr rho gens g cv C = false.
Proof. intros * H. apply not_true_is_false; intros [K [xr Hx]]%norm_verify_checks. exact (H (pc_len K)). Qed.
Print Assumptions verify_rejects_length.

Theorem verify_rejects_empty : forall P sm proof tr rho gens g cv C,
  g = 0 \/ cv = [] -> norm_verify P sm proof tr rho gens g cv C = false.
Proof. exact BpppProofs.verify_rejects_empty. Qed.
Print Assumptions verify_rejects_empty.

Theorem verify_rejects_non_pow2 : forall P sm proof tr rho gens g cv C,
  (~ exists k, 0 <= k /\ g = 2 ^ k) \/ (~ exists k, 0 <= k /\ Z.of_nat (length cv) = 2 ^ k) ->
  norm_verify P sm proof tr rho gens g cv C = false.
Proof.
  intros * H. apply not_true_is_false; intros [K [xr Hx]]%norm_verify_checks.
  destruct H as [H|H]; apply H, is_pow2_spec; [exact (pc_pow2_g K)|exact (pc_pow2_h K)].
Qed.
Print Assumptions verify_rejects_non_pow2.

Theorem verify_rejects_gen_count : forall P sm proof tr rho gens g cv C,
  Z.of_nat (length gens) <> g + Z.of_nat (length cv) ->
  norm_verify P sm proof tr rho gens g cv C = false.
Proof. intros * H. apply not_true_is_false; intros [K [xr Hx]]%norm_verify_checks. pose proof (pc_gens K). lia. Qed.
Print Assumptions verify_rejects_gen_count.

Theorem verify_rejects_rho_zero : forall P sm proof tr gens g cv C,
  norm_verify P sm proof tr 0 gens g cv C = false.
Proof. exact BpppProofs.verify_rejects_rho_zero. Qed.
Print Assumptions verify_rejects_rho_zero.

Theorem verify_rejects_scalar_ge_n : forall P sm proof tr rho gens g cv C,
  cn P <= be_val (slice (Z.to_nat (65 * rounds_of g cv)) 32 proof) \/
  cn P <= be_val (slice (Z.to_nat (65 * rounds_of g cv + 32)) 32 proof) ->
  norm_verify P sm proof tr rho gens g cv C = false.
Proof. exact BpppProofs.verify_rejects_scalar_ge_n. Qed.
Print Assumptions verify_rejects_scalar_ge_n.

Theorem verify_rejects_bad_point : forall P sm proof tr rho gens g cv C i idx,
  0 <= i < rounds_of g cv ->
  parse_one_of_points P (slice (65 * Z.to_nat i) 65 proof) idx = None ->
  norm_verify P sm proof tr rho gens g cv C = false.
Proof. intros * Hi Hbad. apply not_true_is_false; intros [K [xr Hx]]%norm_verify_checks. eapply verify_points_some; [exact Hx| |exact Hbad]. lia. Qed.
Print Assumptions verify_rejects_bad_point.

Theorem verify_rejects_sign_byte_gt_3 : forall P sm proof tr rho gens g cv C i,
  0 <= i < rounds_of g cv ->
  3 < nth (65 * Z.to_nat i) proof 0 ->
  norm_verify P sm proof tr rho gens g cv C = false.
Proof.
  intros * Hi Hb. apply (verify_rejects_bad_point P sm proof tr rho gens g cv C i 0 Hi).
  apply parse_sign_byte_gt_3. rewrite BytesLemmas.hd_slice. exact Hb.
Qed.
Print Assumptions verify_rejects_sign_byte_gt_3.

Theorem verify_rejects_infinity_with_sign : forall P sm proof tr rho gens g cv C i idx,
  0 <= i < rounds_of g cv ->
  let in65 := slice (65 * Z.to_nat i) 65 proof in
  let j := if idx =? 0 then 0 else 1 in
  is_zero_bytes (slice (Z.to_nat (1 + 32 * j)) 32 in65) = true ->
  Z.land (hd 0 in65) (2 - j) <> 0 ->
  norm_verify P sm proof tr rho gens g cv C = false.
Proof.
  intros * Hi in65 j Hz Hs. apply (verify_rejects_bad_point P sm proof tr rho gens g cv C i idx Hi).
  apply parse_infinity_with_sign; assumption.
Qed.
Print Assumptions verify_rejects_infinity_with_sign.

Theorem verify_rejects_small_scratch : forall P sm proof tr rho gens g cv C,
  sm < needed_scratch g (Z.of_nat (length cv)) ->
  norm_verify P sm proof tr rho gens g cv C = false.
Proof. intros * H. apply not_true_is_false; intros [K [xr Hx]]%norm_verify_checks. pose proof (pc_scratch K). lia. Qed.
Print Assumptions verify_rejects_small_scratch.

Theorem verify_scratch_irrelevant : forall P sm sm' proof tr rho gens g cv C,
  needed_scratch g (Z.of_nat (length cv)) <= sm -> needed_scratch g (Z.of_nat (length cv)) <= sm' ->
  norm_verify P sm proof tr rho gens g cv C = norm_verify P sm' proof tr rho gens g cv C.
Proof. intros. unfold norm_verify. rewrite (verify_pre_scratch_irrelevant P sm sm') by assumption. reflexivity. Qed.
Print Assumptions verify_scratch_irrelevant.

Theorem is_pow2_spec : forall x, is_pow2 x = true <-> exists k, 0 <= k /\ x = 2 ^ k.
Proof. exact BpppProofs.is_pow2_spec. Qed.
Print Assumptions is_pow2_spec.

Theorem log2_pow2 : forall k, 0 <= k -> bppp_log2 (2 ^ k) = k.
Proof. exact Z.log2_pow2. Qed.
Print Assumptions log2_pow2.

Theorem points_codec : forall P X R,
  codec_wf X -> codec_wf R ->
  parse_one_of_points P (serialize_points X R) 0 = ge_parse_ext P (ge_serialize_ext X) /\
  parse_one_of_points P (serialize_points X R) 1 = ge_parse_ext P (ge_serialize_ext R).
Proof.
  intros * HX HR. split; [exact (parse_serialize_points P X R 0 HX HR)|exact (parse_serialize_points P X R 1 HX HR)].
Qed.
Print Assumptions points_codec.

Theorem serialize_points_length : forall X R, length (serialize_points X R) = 65%nat.
Proof. exact BpppProofs.serialize_points_length. Qed.
Print Assumptions serialize_points_length.

Theorem serialize_points_sign_le_3 : forall X R, 0 <= hd 0 (serialize_points X R) <= 3.
Proof.
  intros. unfold serialize_points. cbn [hd].
  destruct (land1_cases (hd 0 (ge_serialize_ext X))) as [-> | ->], (land1_cases (hd 0 (ge_serialize_ext R))) as [-> | ->];
    simpl; lia.
Qed.
Print Assumptions serialize_points_sign_le_3.

Theorem parse_sign_byte_gt_3 : forall P in65 idx, 3 < hd 0 in65 -> parse_one_of_points P in65 idx = None.
Proof. exact BpppProofs.parse_sign_byte_gt_3. Qed.
Print Assumptions parse_sign_byte_gt_3.

Theorem parse_infinity_with_sign : forall P in65 idx,
  let i := if idx =? 0 then 0 else 1 in
  is_zero_bytes (slice (Z.to_nat (1 + 32 * i)) 32 in65) = true ->
  Z.land (hd 0 in65) (2 - i) <> 0 ->
  parse_one_of_points P in65 idx = None.
Proof. exact BpppProofs.parse_infinity_with_sign. Qed.
Print Assumptions parse_infinity_with_sign.

Theorem generators_prefix_consistent : forall P m k,
  (m <= k)%nat -> firstn m (gens_create P k) = gens_create P m.
Proof. exact BpppProofs.generators_prefix_consistent. Qed.
Print Assumptions generators_prefix_consistent.

Theorem generators_prefix_consistent_api : forall P m k l,
  (m <= k)%nat -> sequence (gens_create P k) = Some l ->
  sequence (gens_create P m) = Some (firstn m l).
Proof.
  intros * H Hs. rewrite <- (generators_prefix_consistent P m k H). apply sequence_firstn, Hs.
Qed.
Print Assumptions generators_prefix_consistent_api.

Theorem gens_serialize_prefix : forall P m l,
  gens_serialize P (firstn m l) = firstn (33 * m) (gens_serialize P l).
Proof. intros. apply ListLemmas.flat_map_firstn_const, bp_gen_ser1_length. Qed.
Print Assumptions gens_serialize_prefix.

Theorem generators_roundtrip_partial : forall P l,
  (forall Q, In Q l -> bp_gen_parse1 P (bp_gen_ser1 P Q) = Some Q) ->
  gens_parse P (gens_serialize P l) = (Some l, 2).
Proof.
  intros * H. unfold gens_parse, gens_serialize.
  rewrite (ListLemmas.flat_map_length_const _ _ (bp_gen_ser1_length P)), Nat2Z.inj_mul, Z.mul_comm, Z.mod_mul by lia.
  cbn [Z.eqb negb]. fold (gens_serialize P l). rewrite gens_parse_list_serialize by exact H. reflexivity.
Qed.
Print Assumptions generators_roundtrip_partial.

Theorem parse_rejects_malformed_without_leak : forall P data,
  fst (gens_parse P data) = None -> snd (gens_parse P data) = 0.
Proof. exact BpppProofs.parse_rejects_malformed_without_leak. Qed.
Print Assumptions parse_rejects_malformed_without_leak.

Theorem parse_rejects_bad_length : forall P data,
  Z.of_nat (length data) mod 33 <> 0 -> gens_parse P data = (None, 0).
Proof. intros * H. unfold gens_parse. apply Z.eqb_neq in H. rewrite H. reflexivity. Qed.
Print Assumptions parse_rejects_bad_length.

Theorem parse_rejects_bad_member : forall P data i,
  (i < length (chunks 33 data))%nat ->
  bp_gen_parse1 P (nth i (chunks 33 data) []) = None ->
  fst (gens_parse P data) = None.
Proof.
  intros * Hi H. unfold gens_parse, gens_parse_list. destruct (negb _); [reflexivity|].
  destruct (sequence _) as [r|] eqn:E; [|reflexivity].
  destruct (sequence_In _ _ _ E (in_map _ _ _ (nth_In _ [] Hi)) H).
Qed.
Print Assumptions parse_rejects_bad_member.

Theorem prove_length : forall P tr rho gens nv lv cv pf,
  is_pow2 (Z.of_nat (length nv)) = true -> is_pow2 (Z.of_nat (length lv)) = true ->
  norm_prove P tr rho gens nv lv cv = Some pf ->
  Z.of_nat (length pf) = 65 * Z.max (Z.log2 (Z.of_nat (length nv))) (Z.log2 (Z.of_nat (length lv))) + 64.
Proof. exact BpppProofs.prove_length. Qed.
Print Assumptions prove_length.

Theorem prove_total : forall P tr rho gens nv lv cv,
  is_pow2 (Z.of_nat (length nv)) = true -> is_pow2 (Z.of_nat (length lv)) = true ->
  exists pf, norm_prove P tr rho gens nv lv cv = Some pf.
Proof.
  intros * [ka [Hn _]]%pow2_nat [kb [Hl _]]%pow2_nat.
  destruct (norm_prove_spec P tr rho gens nv lv cv ka kb Hn Hl) as [pf [E _]]. exists pf. exact E.
Qed.
Print Assumptions prove_total.
